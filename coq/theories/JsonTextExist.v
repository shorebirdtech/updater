(* Which strings a JSON text can denote.  A Rust String is text, so a string of the model is one only if its bytes
   ([bytes_of]) are well-formed UTF-8.  The [_utf8] predicates say this of every string in a value: here of a patch-check
   answer, in JsonStateExist.v and JsonSjExist.v of the two state files.  Under it JsonWriteProofs.v writes a text that is
   read back as the value; JsonWrite.bytes_of_string is [bytes_of] (JsonWriteProofs.bytes_of_string_same). *)
From UV Require Import Base Model JsonText.

Definition bytes_of (s : string) : bytes := map N_of_ascii (list_ascii_of_string s).
Lemma str_of_bytes_of s : str_of (bytes_of s) = s.
Proof.
  unfold str_of, bytes_of. rewrite map_map.
  rewrite (map_ext _ (fun a => a)) by (intros a; apply ascii_N_embedding).
  rewrite map_id. apply string_of_list_ascii_of_string.
Qed.

Definition ostring_utf8 (o : option string) : Prop := match o with Some s => utf8_valid (bytes_of s) = true | None => True end.
Definition patch_utf8 (p : patch) : Prop :=
  utf8_valid (bytes_of (p_hash p)) = true /\ utf8_valid (bytes_of (p_url p)) = true /\ ostring_utf8 (p_sig p).
Definition resp_utf8 (r : resp) : Prop := match r_patch r with Some p => patch_utf8 p | None => True end.
