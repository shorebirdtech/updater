(* The readers of JsonText.v accept every sentence of their grammar and return the tree it denotes.  The grammars are
   relations that allow optional white space, every escape form, any digit string for a number: G for the strict
   reader, L (unchecked string contents) for the scanner, GS for the reader that follows a struct.  One step of the
   loops over elements and members is written once, over the functions it calls, and serves all three readers. *)
From UV Require Import Base Json JsonText.
From Coq Require Import ZifyBool.

Definition WS (w : bytes) : Prop := Forall (fun c => is_ws c = true) w.
Definition starts_nonws (l : bytes) : Prop := match l with [] => True | c :: _ => is_ws c = false end.

Lemma skip_ws_app w l : WS w -> starts_nonws l -> skip_ws (w ++ l) = l.
Proof.
  intros Hw Hl. induction Hw as [|c w Hc _ IH]; cbn [app].
  - destruct l as [|c r]; [reflexivity|]. cbn [skip_ws]. cbn in Hl. rewrite Hl. reflexivity.
  - cbn [skip_ws]. rewrite Hc. exact IH.
Qed.

Lemma skip_ws_all w : WS w -> skip_ws w = [].
Proof. intros Hw. rewrite <- (app_nil_r w). apply skip_ws_app; [exact Hw|exact I]. Qed.

Lemma sep_nonws c X : c = 44 \/ c = 93 \/ c = 125 \/ c = 58 -> starts_nonws (c :: X).
Proof. intros [-> | [-> | [-> | ->]]]; reflexivity. Qed.

Lemma skip_ws_sep w c r : WS w -> c = 44 \/ c = 93 \/ c = 125 \/ c = 58 -> skip_ws (w ++ c :: r) = c :: r.
Proof. intros Hw Hc. apply skip_ws_app; [exact Hw|apply sep_nonws; exact Hc]. Qed.

(* the text of one item of a string body, the bytes it denotes *)
Inductive Item : bytes -> bytes -> Prop :=
| I_raw c : 32 <= c -> c <> 34 -> c <> 92 -> Item [c] [c]
| I_esc e b : simple_escape e = Some b -> e <> 117 -> Item [92; e] [b]
| I_u a b c d n : hex4 [a; b; c; d] = Some (n, []) -> is_low_surrogate n = false -> is_high_surrogate n = false ->
    Item [92; 117; a; b; c; d] (utf8_enc n)
| I_pair a b c d n a2 b2 c2 d2 n2 :
    hex4 [a; b; c; d] = Some (n, []) -> is_high_surrogate n = true ->
    hex4 [a2; b2; c2; d2] = Some (n2, []) -> is_low_surrogate n2 = true ->
    Item [92; 117; a; b; c; d; 92; 117; a2; b2; c2; d2] (utf8_enc (65536 + (n - 55296) * 1024 + (n2 - 56320))).

Inductive Body : bytes -> bytes -> Prop :=
| B_nil : Body [] []
| B_cons t d ts ds : Item t d -> Body ts ds -> Body (t ++ ts) (d ++ ds).

Lemma hex4_app a b c d n r : hex4 [a; b; c; d] = Some (n, []) -> hex4 (a :: b :: c :: d :: r) = Some (n, r).
Proof.
  unfold hex4. destruct (hexv a); [|discriminate]. destruct (hexv b); [|discriminate].
  destruct (hexv c); [|discriminate]. destruct (hexv d); [|discriminate].
  intros H. injection H as <-. reflexivity.
Qed.

Lemma low_not_high n : is_low_surrogate n = true -> is_high_surrogate n = false.
Proof. unfold is_low_surrogate, is_high_surrogate. lia. Qed.
Lemma high_not_low n : is_high_surrogate n = true -> is_low_surrogate n = false.
Proof. unfold is_low_surrogate, is_high_surrogate. lia. Qed.

(* a plain byte and a one-letter escape are handled alike by both readers *)
Lemma str_body_raw f s c r acc : 32 <= c -> c <> 34 -> c <> 92 ->
  str_body (S f) s (c :: r) acc = str_body f s r (if s then c :: acc else acc).
Proof.
  intros H1 H2 H3. cbn [str_body].
  rewrite (proj2 (N.eqb_neq c 34) H2), (proj2 (N.eqb_neq c 92) H3), (proj2 (N.ltb_ge c 32) H1). reflexivity.
Qed.

Lemma str_body_esc f s e b r acc : simple_escape e = Some b -> e <> 117 ->
  str_body (S f) s (92 :: e :: r) acc = str_body f s r (if s then b :: acc else acc).
Proof. intros He Hu. cbn [str_body]. rewrite (proj2 (N.eqb_neq e 117) Hu), He. reflexivity. Qed.

Lemma str_body_item t d : Item t d -> forall f rest acc,
  str_body (S f) true (t ++ rest) acc = str_body f true rest (rev d ++ acc).
Proof.
  intros [c H1 H2 H3|e b He Hu|a b c d' n Hh Hl Hhi|a b c d' n a2 b2 c2 d2 n2 Hh Hhi Hh2 Hl2] f rest acc.
  - apply (str_body_raw f true); assumption.
  - apply (str_body_esc f true e b); assumption.
  - cbn [app str_body]. rewrite (hex4_app _ _ _ _ _ rest Hh), Hl, Hhi. reflexivity.
  - cbn [app str_body]. rewrite (hex4_app _ _ _ _ _ _ Hh), (high_not_low _ Hhi), Hhi.
    rewrite (hex4_app _ _ _ _ _ rest Hh2), Hl2. reflexivity.
Qed.

Lemma utf8_enc_length n : (List.length (utf8_enc n) <= 4)%nat.
Proof. unfold utf8_enc. destruct (n <? 128), (n <? 2048), (n <? 65536); cbn; lia. Qed.

Lemma Item_length t d : Item t d -> (1 <= List.length t)%nat /\ (List.length d <= List.length t)%nat.
Proof.
  destruct 1 as [| |a b c d n _ _ _|a b c d n a2 b2 c2 d2 n2 _ _ _ _]; cbn [List.length]; [lia|lia| |].
  - pose proof (utf8_enc_length n). lia.
  - pose proof (utf8_enc_length (65536 + (n - 55296) * 1024 + (n2 - 56320))). lia.
Qed.

Lemma body_items ts ds : Body ts ds -> (List.length ts >= List.length ds)%nat.
Proof.
  induction 1 as [|t d ts ds Hi _ IH]; [cbn; lia|]. rewrite !app_length. destruct (Item_length _ _ Hi). lia.
Qed.

Lemma str_body_body ts ds : Body ts ds -> forall f rest acc, (List.length ts < f)%nat ->
  str_body f true (ts ++ 34 :: rest) acc = Some (rev acc ++ ds, rest).
Proof.
  induction 1 as [|t d ts ds Hi Hb IH]; intros [|f] rest acc Hf; try (cbn in Hf; lia).
  - cbn [app]. rewrite app_nil_r. reflexivity.
  - rewrite app_length in Hf. destruct (Item_length _ _ Hi).
    rewrite <- app_assoc, (str_body_item _ _ Hi), IH by lia.
    rewrite rev_app_distr, rev_involutive, <- app_assoc. reflexivity.
Qed.

Definition Gstr (s : bytes) (b : bytes) : Prop :=
  exists ts, b = 34 :: ts ++ [34] /\ Body ts s /\ utf8_valid s = true.

Definition reads_key {K} (key : nat -> bytes -> option (K * bytes)) (k : K) (kb : bytes) : Prop :=
  exists r, kb = 34 :: r /\ forall f rest, (List.length kb <= f)%nat -> key f (r ++ rest) = Some (k, rest).

Lemma Gstr_reads s b : Gstr s b -> reads_key parse_string s b.
Proof.
  intros (ts & -> & Hb & Hv). exists (ts ++ [34]). split; [reflexivity|]. intros f rest Hf.
  cbn [List.length] in Hf. rewrite app_length in Hf.
  unfold parse_string. rewrite <- app_assoc. cbn [app]. rewrite (str_body_body _ _ Hb) by lia.
  cbn [rev app]. rewrite Hv. reflexivity.
Qed.

Inductive LItem : bytes -> Prop :=
| LI_raw c : 32 <= c -> c <> 34 -> c <> 92 -> LItem [c]
| LI_esc e b : simple_escape e = Some b -> e <> 117 -> LItem [92; e]
| LI_u a b c d n : hex4 [a; b; c; d] = Some (n, []) -> LItem [92; 117; a; b; c; d].
Inductive LBody : bytes -> Prop :=
| LB_nil : LBody []
| LB_cons t ts : LItem t -> LBody ts -> LBody (t ++ ts).
Definition Lstr (b : bytes) : Prop := exists ts, b = 34 :: ts ++ [34] /\ LBody ts.

Lemma str_body_litem t : LItem t -> forall f rest acc,
  str_body (S f) false (t ++ rest) acc = str_body f false rest acc.
Proof.
  intros [c H1 H2 H3|e b He Hu|a b c d n Hh] f rest acc.
  - apply (str_body_raw f false); assumption.
  - apply (str_body_esc f false e b); assumption.
  - cbn [app str_body]. rewrite (hex4_app _ _ _ _ _ rest Hh). reflexivity.
Qed.

Lemma str_body_lbody ts : LBody ts -> forall f rest acc, (List.length ts < f)%nat ->
  str_body f false (ts ++ 34 :: rest) acc = Some (rev acc, rest).
Proof.
  induction 1 as [|t ts Hi Hb IH]; intros [|f] rest acc Hf; try (cbn in Hf; lia).
  - reflexivity.
  - rewrite app_length in Hf. assert (1 <= List.length t)%nat by (destruct Hi; cbn; lia).
    rewrite <- app_assoc, (str_body_litem _ Hi). apply IH. lia.
Qed.

Lemma Body_LBody ts ds : Body ts ds -> LBody ts.
Proof.
  induction 1 as [|t d ts ds Hi _ IH]; [constructor|].
  destruct Hi as [c H1 H2 H3|e b He Hu|a b c d n Hh _ _|a b c d n a2 b2 c2 d2 n2 Hh _ Hh2 _].
  - constructor; [constructor; assumption|exact IH].
  - constructor; [econstructor; eassumption|exact IH].
  - constructor; [econstructor; eassumption|exact IH].
  - change ([92; 117; a; b; c; d; 92; 117; a2; b2; c2; d2] ++ ts) with ([92; 117; a; b; c; d] ++ [92; 117; a2; b2; c2; d2] ++ ts).
    constructor; [econstructor; eassumption|]. constructor; [econstructor; eassumption|exact IH].
Qed.
Lemma Gstr_Lstr s b : Gstr s b -> Lstr b.
Proof. intros (ts & -> & Hb & _). exists ts. split; [reflexivity|]. eapply Body_LBody; eassumption. Qed.

Definition AllDig (ds : bytes) : Prop := Forall (fun c => is_digit c = true) ds.
Definition val_from (acc : N) (ds : bytes) : N := fold_left (fun a c => a * 10 + (c - 48)) ds acc.
Definition nondigit_start (l : bytes) : Prop := match l with [] => True | c :: _ => is_digit c = false end.

Lemma digits_app ds : AllDig ds -> forall rest acc cnt, nondigit_start rest ->
  digits (ds ++ rest) acc cnt = (val_from acc ds, cnt + N.of_nat (List.length ds), rest).
Proof.
  induction 1 as [|c ds Hc _ IH]; intros rest acc cnt Hr.
  - cbn [app val_from fold_left List.length]. destruct rest as [|c r]; cbn [digits].
    + f_equal. f_equal. lia.
    + cbn in Hr. rewrite Hr. f_equal. f_equal. lia.
  - cbn [app digits]. rewrite Hc. rewrite IH by exact Hr. cbn [val_from fold_left List.length]. f_equal. f_equal. lia.
Qed.

Inductive IntPart : bytes -> N -> Prop :=
| IP_zero : IntPart [48] 0
| IP_nz d ds : is_digit d = true -> d <> 48 -> AllDig ds -> IntPart (d :: ds) (val_from 0 (d :: ds)).
Inductive Frac : bytes -> bool -> Prop :=
| F_none : Frac [] false
| F_some fs : fs <> [] -> AllDig fs -> Frac (46 :: fs) true.
Inductive Expo : bytes -> bool -> Prop :=
| E_none : Expo [] false
| E_some e sg es : e = 101 \/ e = 69 -> sg = [] \/ sg = [43] \/ sg = [45] -> es <> [] -> AllDig es ->
    Expo (e :: sg ++ es) true.

Definition Gnum (n : jnum) (b : bytes) : Prop :=
  exists neg ip v fr isf ex ise,
    b = (if neg : bool then [45] else []) ++ ip ++ fr ++ ex /\ IntPart ip v /\ Frac fr isf /\ Expo ex ise /\
    n = if ise then JFloat else classify isf neg v.

Definition ok_rest (l : bytes) : Prop :=
  match l with [] => True | c :: _ => is_ws c = true \/ c = 44 \/ c = 93 \/ c = 125 end.

(* the stages of parse_number after the sign, as functions of their own *)
Definition exp_sign (r : bytes) : bytes :=
  match r with s :: r' => if (s =? 43) || (s =? 45) then r' else r | [] => [] end.
Definition exp_part (isf neg : bool) (v : N) (l : bytes) : option (jnum * bytes) :=
  match l with
  | c :: r =>
      if (c =? 101) || (c =? 69) then
        let '(_, cnt, r2) := digits (exp_sign r) 0 0 in
        if cnt =? 0 then None else Some (JFloat, r2)
      else Some (classify isf neg v, l)
  | [] => Some (classify isf neg v, [])
  end.
Definition frac_part (l : bytes) : option (bool * bytes) :=
  match l with
  | c :: r => if c =? 46 then (let '(_, cnt, r') := digits r 0 0 in if cnt =? 0 then None else Some (true, r'))
              else Some (false, l)
  | [] => Some (false, [])
  end.
Definition int_part (neg : bool) (l : bytes) : option (jnum * bytes) :=
  match l with
  | [] => None
  | c :: r =>
      if c =? 48 then match r with d :: _ => if is_digit d then None else frac_exp neg 0 r | [] => frac_exp neg 0 r end
      else if is_digit c then let '(v, _, r') := digits l 0 0 in frac_exp neg v r'
      else None
  end.

Lemma frac_exp_parts neg v l :
  frac_exp neg v l = match frac_part l with Some (isf, l2) => exp_part isf neg v l2 | None => None end.
Proof. reflexivity. Qed.

Lemma parse_number_parts l :
  parse_number l = match l with c :: r => if c =? 45 then int_part true r else int_part false l | [] => None end.
Proof. destruct l as [|c r]; [reflexivity|]. unfold parse_number. destruct (c =? 45); reflexivity. Qed.

Definition num_end (l : bytes) : Prop := match l with [] => True | c :: _ => is_digit c = false /\ c <> 46 end.

Lemma num_end_nondigit l : num_end l -> nondigit_start l.
Proof. destruct l as [|c r]; [auto|]. intros [H _]. exact H. Qed.

Lemma ok_rest_end l : ok_rest l -> num_end l.
Proof. destruct l as [|c r]; [auto|]. cbn. unfold is_ws, is_digit. lia. Qed.

Lemma Expo_end ex ise rest : Expo ex ise -> ok_rest rest -> num_end (ex ++ rest).
Proof. intros [|e sg es Hee _ _ _] Hr; [apply ok_rest_end; exact Hr|]. cbn. unfold is_digit. lia. Qed.

Lemma Frac_nondigit fr isf l : Frac fr isf -> nondigit_start l -> nondigit_start (fr ++ l).
Proof. intros [|fs _ _] Hl; [exact Hl|reflexivity]. Qed.

Lemma len_pos {A} (l : list A) : l <> [] -> (0 < List.length l)%nat.
Proof. destruct l; [congruence|cbn; lia]. Qed.

Lemma exp_sign_G sg es l : sg = [] \/ sg = [43] \/ sg = [45] -> AllDig es -> es <> [] ->
  exp_sign (sg ++ es ++ l) = es ++ l.
Proof.
  intros [-> | [-> | ->]] Hd Hne; [|reflexivity|reflexivity].
  destruct Hd as [|e0 es' He0 _]; [congruence|]. cbn [app exp_sign]. unfold is_digit in He0.
  replace ((e0 =? 43) || (e0 =? 45)) with false by lia. reflexivity.
Qed.

Lemma exp_part_G isf neg v ex ise rest : Expo ex ise -> ok_rest rest ->
  exp_part isf neg v (ex ++ rest) = Some ((if ise then JFloat else classify isf neg v), rest).
Proof.
  intros [|e sg es Hee Hsg Hne Hd] Hr; cbn [app].
  - destruct rest as [|c r]; [reflexivity|]. cbn [exp_part]. cbn in Hr. unfold is_ws in Hr.
    replace ((c =? 101) || (c =? 69)) with false by lia. reflexivity.
  - cbn [exp_part]. replace ((e =? 101) || (e =? 69)) with true by lia.
    rewrite <- app_assoc, (exp_sign_G _ _ _ Hsg Hd Hne), (digits_app _ Hd) by (apply num_end_nondigit, ok_rest_end, Hr).
    pose proof (len_pos es Hne). replace (0 + N.of_nat (List.length es) =? 0) with false by lia. reflexivity.
Qed.

Lemma frac_part_G fr isf l : Frac fr isf -> num_end l -> frac_part (fr ++ l) = Some (isf, l).
Proof.
  intros [|fs Hne Hd] Hl; cbn [app].
  - destruct l as [|c r]; [reflexivity|]. cbn [frac_part]. rewrite (proj2 (N.eqb_neq c 46) (proj2 Hl)). reflexivity.
  - cbn [frac_part]. rewrite (digits_app _ Hd) by (apply num_end_nondigit, Hl).
    pose proof (len_pos fs Hne). replace (0 + N.of_nat (List.length fs) =? 0) with false by lia. reflexivity.
Qed.

Lemma frac_exp_G neg v fr isf ex ise rest :
  Frac fr isf -> Expo ex ise -> ok_rest rest ->
  frac_exp neg v (fr ++ ex ++ rest) = Some ((if ise then JFloat else classify isf neg v), rest).
Proof.
  intros Hf He Hr. rewrite frac_exp_parts, (frac_part_G _ _ _ Hf) by (eapply Expo_end; eassumption).
  apply exp_part_G; assumption.
Qed.

Lemma int_part_G neg ip v l : IntPart ip v -> nondigit_start l -> int_part neg (ip ++ l) = frac_exp neg v l.
Proof.
  intros [|d ds Hd Hnz Hds] Hl.
  - cbn [app int_part]. destruct l as [|c r]; [reflexivity|]. cbn in Hl. rewrite Hl. reflexivity.
  - cbn [app int_part]. rewrite (proj2 (N.eqb_neq d 48) Hnz), Hd.
    change (d :: ds ++ l) with ((d :: ds) ++ l).
    rewrite (digits_app (d :: ds) (Forall_cons d Hd Hds) l 0 0 Hl). reflexivity.
Qed.

Lemma IntPart_head ip v : IntPart ip v -> exists c r, ip = c :: r /\ is_digit c = true.
Proof. intros [|d ds Hd _ _]; eauto. Qed.

Lemma parse_number_G n b rest : Gnum n b -> ok_rest rest -> parse_number (b ++ rest) = Some (n, rest).
Proof.
  intros (neg & ip & v & fr & isf & ex & ise & -> & Hip & Hf & He & ->) Hr.
  assert (Hi : int_part neg (ip ++ fr ++ ex ++ rest) = Some ((if ise then JFloat else classify isf neg v), rest)).
  { rewrite (int_part_G _ _ _ _ Hip); [apply frac_exp_G; assumption|].
    eapply Frac_nondigit, num_end_nondigit, Expo_end; eassumption. }
  rewrite parse_number_parts, <- !app_assoc. destruct neg; cbn [app]; [exact Hi|].
  destruct (IntPart_head _ _ Hip) as (c & r & -> & Hc). cbn [app] in *. unfold is_digit in Hc.
  replace (c =? 45) with false by lia. exact Hi.
Qed.

Inductive G : json -> bytes -> Prop :=
| G_null : G JNull [110; 117; 108; 108]
| G_true : G (JBool true) [116; 114; 117; 101]
| G_false : G (JBool false) [102; 97; 108; 115; 101]
| G_num n b : Gnum n b -> G (JNum n) b
| G_str s b : Gstr s b -> G (JStr (str_of s)) b
| G_arr0 w : WS w -> G (JArr []) (91 :: w ++ [93])
| G_arr l w b : WS w -> GE l b -> G (JArr l) (91 :: w ++ b)
| G_obj0 w : WS w -> G (JObj []) (123 :: w ++ [125])
| G_obj l w b : WS w -> GM l b -> G (JObj l) (123 :: w ++ b)
with GE : list json -> bytes -> Prop :=
| GE_last v b w2 : G v b -> WS w2 -> GE [v] (b ++ w2 ++ [93])
| GE_cons v b w2 w1 l b' : G v b -> WS w2 -> WS w1 -> GE l b' -> GE (v :: l) (b ++ w2 ++ 44 :: w1 ++ b')
with GM : list (string * json) -> bytes -> Prop :=
| GM_last k kb w2 w3 v b w4 : Gstr k kb -> WS w2 -> WS w3 -> G v b -> WS w4 ->
    GM [(str_of k, v)] (kb ++ w2 ++ 58 :: w3 ++ b ++ w4 ++ [125])
| GM_cons k kb w2 w3 v b w4 w1 l b' : Gstr k kb -> WS w2 -> WS w3 -> G v b -> WS w4 -> WS w1 -> GM l b' ->
    GM ((str_of k, v) :: l) (kb ++ w2 ++ 58 :: w3 ++ b ++ w4 ++ 44 :: w1 ++ b').

Scheme G_mut := Induction for G Sort Prop
  with GE_mut := Induction for GE Sort Prop
  with GM_mut := Induction for GM Sort Prop.
Combined Scheme G_GE_GM_ind from G_mut, GE_mut, GM_mut.

Inductive L : bytes -> Prop :=
| L_null : L [110; 117; 108; 108]
| L_true : L [116; 114; 117; 101]
| L_false : L [102; 97; 108; 115; 101]
| L_num n b : Gnum n b -> L b
| L_str b : Lstr b -> L b
| L_arr0 w : WS w -> L (91 :: w ++ [93])
| L_arr w b : WS w -> LE b -> L (91 :: w ++ b)
| L_obj0 w : WS w -> L (123 :: w ++ [125])
| L_obj w b : WS w -> LM b -> L (123 :: w ++ b)
with LE : bytes -> Prop :=
| LE_last b w2 : L b -> WS w2 -> LE (b ++ w2 ++ [93])
| LE_cons b w2 w1 b' : L b -> WS w2 -> WS w1 -> LE b' -> LE (b ++ w2 ++ 44 :: w1 ++ b')
with LM : bytes -> Prop :=
| LM_last kb w2 w3 b w4 : Lstr kb -> WS w2 -> WS w3 -> L b -> WS w4 ->
    LM (kb ++ w2 ++ 58 :: w3 ++ b ++ w4 ++ [125])
| LM_cons kb w2 w3 b w4 w1 b' : Lstr kb -> WS w2 -> WS w3 -> L b -> WS w4 -> WS w1 -> LM b' ->
    LM (kb ++ w2 ++ 58 :: w3 ++ b ++ w4 ++ 44 :: w1 ++ b').

Scheme L_mut := Induction for L Sort Prop
  with LE_mut := Induction for LE Sort Prop
  with LM_mut := Induction for LM Sort Prop.
Combined Scheme L_LE_LM_ind from L_mut, LE_mut, LM_mut.

Theorem G_is_L :
  (forall t b, G t b -> L b) /\ (forall l b, GE l b -> LE b) /\ (forall l b, GM l b -> LM b).
Proof.
  apply G_GE_GM_ind; intros; try (constructor; assumption); try (econstructor; eassumption).
  - constructor. eapply Gstr_Lstr. eassumption.
  - constructor; try assumption. eapply Gstr_Lstr. eassumption.
  - constructor; try assumption. eapply Gstr_Lstr. eassumption.
Qed.

(* GS: where the struct has a field the value is read strictly (a struct, written as an object or positionally, by
   its own schema); the value of any other key is any sentence of L and is represented by JNull *)
Definition hd_schema (fs : list (string * schema)) : schema := match fs with (_, sc) :: _ => sc | [] => SLeaf end.

Inductive GS : schema -> json -> bytes -> Prop :=
| GS_leaf t b : G t b -> GS SLeaf t b
| GS_other fs t b : G t b -> (forall r, b <> 123 :: r) -> (forall r, b <> 91 :: r) -> GS (SStruct fs) t b
| GS_obj0 fs w : WS w -> GS (SStruct fs) (JObj []) (123 :: w ++ [125])
| GS_obj fs l w b : WS w -> GSM fs l b -> GS (SStruct fs) (JObj l) (123 :: w ++ b)
| GS_arr0 fs w : WS w -> GS (SStruct fs) (JArr []) (91 :: w ++ [93])
| GS_arr fs l w b : WS w -> GSE fs l b -> GS (SStruct fs) (JArr l) (91 :: w ++ b)
with GSM : list (string * schema) -> list (string * json) -> bytes -> Prop :=
| GSM_last fs k kb w2 w3 v b w4 : Gstr k kb -> WS w2 -> WS w3 -> GSV fs (str_of k) v b -> WS w4 ->
    GSM fs [(str_of k, v)] (kb ++ w2 ++ 58 :: w3 ++ b ++ w4 ++ [125])
| GSM_cons fs k kb w2 w3 v b w4 w1 l b' : Gstr k kb -> WS w2 -> WS w3 -> GSV fs (str_of k) v b -> WS w4 -> WS w1 ->
    GSM fs l b' -> GSM fs ((str_of k, v) :: l) (kb ++ w2 ++ 58 :: w3 ++ b ++ w4 ++ 44 :: w1 ++ b')
with GSV : list (string * schema) -> string -> json -> bytes -> Prop :=
| GSV_known fs k sc v b : field_of k fs = Some sc -> GS sc v b -> GSV fs k v b
| GSV_unknown fs k b : field_of k fs = None -> L b -> GSV fs k JNull b
with GSE : list (string * schema) -> list json -> bytes -> Prop :=
| GSE_last fs v b w2 : GS (hd_schema fs) v b -> WS w2 -> GSE fs [v] (b ++ w2 ++ [93])
| GSE_cons fs v b w2 w1 l b' : GS (hd_schema fs) v b -> WS w2 -> WS w1 -> GSE (tl fs) l b' ->
    GSE fs (v :: l) (b ++ w2 ++ 44 :: w1 ++ b').

Scheme GS_mut := Induction for GS Sort Prop
  with GSM_mut := Induction for GSM Sort Prop
  with GSV_mut := Induction for GSV Sort Prop
  with GSE_mut := Induction for GSE Sort Prop.
Combined Scheme GS_all_ind from GS_mut, GSM_mut, GSV_mut, GSE_mut.

Definition vstart (c : N) : Prop :=
  c = 110 \/ c = 116 \/ c = 102 \/ c = 34 \/ c = 45 \/ is_digit c = true \/ c = 91 \/ c = 123.
Definition starts (P : N -> Prop) (b : bytes) : Prop := exists c r, b = c :: r /\ P c.

Lemma vstart_nonws c : vstart c -> is_ws c = false.
Proof. unfold vstart, is_ws, is_digit. intros H. lia. Qed.

Lemma Gnum_head n b : Gnum n b -> starts (fun c => c = 45 \/ is_digit c = true) b.
Proof.
  intros (neg & ip & v & fr & isf & ex & ise & -> & Hip & _). destruct neg.
  - exists 45, (ip ++ fr ++ ex). split; [reflexivity|left; reflexivity].
  - destruct (IntPart_head _ _ Hip) as (c & r & -> & Hc). exists c, (r ++ fr ++ ex). split; [reflexivity|right; exact Hc].
Qed.

Lemma L_head b : L b -> starts vstart b.
Proof.
  unfold starts, vstart. destruct 1 as [| | |n b Hn|b (ts & -> & _)|w Hw|w b Hw He|w Hw|w b Hw Hm];
    try (eexists _, _; split; [reflexivity|]; tauto).
  destruct (Gnum_head _ _ Hn) as (c & r & -> & Hc). eexists _, _; split; [reflexivity|]. tauto.
Qed.
Lemma LE_head b : LE b -> starts vstart b.
Proof. destruct 1 as [b w2 Hv _|b w2 w1 b' Hv _ _ _]; destruct (L_head _ Hv) as (c & r & -> & Hc); cbn [app]; eexists _, _; eauto. Qed.
Lemma starts_quote r : starts vstart (34 :: r).
Proof. exists 34, r. split; [reflexivity|]. unfold vstart. tauto. Qed.
Lemma LM_head b : LM b -> starts vstart b.
Proof. destruct 1 as [kb w2 w3 b w4 (ts & -> & _) _ _ _ _|kb w2 w3 b w4 w1 b' (ts & -> & _) _ _ _ _ _ _]; apply starts_quote. Qed.

Lemma G_head t b : G t b -> starts vstart b.
Proof. intros g. exact (L_head b (proj1 G_is_L t b g)). Qed.

Lemma GS_head sc t b : GS sc t b -> starts vstart b.
Proof.
  destruct 1 as [t b g|fs t b g _ _|fs w _|fs l w b _ _|fs w _|fs l w b _ _]; try (apply (G_head _ _ g));
    eexists _, _; (split; [reflexivity|]); unfold vstart; tauto.
Qed.
Lemma GSE_head fs l b : GSE fs l b -> starts vstart b.
Proof.
  destruct 1 as [fs v b w2 Hv _|fs v b w2 w1 l b' Hv _ _ _]; destruct (GS_head _ _ _ Hv) as (c & z & -> & Hc); cbn [app]; eexists _, _; eauto.
Qed.
Lemma GSM_head fs l b : GSM fs l b -> exists r, b = 34 :: r.
Proof.
  destruct 1 as [fs k kb w2 w3 v b w4 (ts & -> & _) _ _ _ _|fs k kb w2 w3 v b w4 w1 l b' (ts & -> & _) _ _ _ _ _ _]; cbn [app]; eauto.
Qed.

Lemma L_starts b rest : L b -> starts_nonws (b ++ rest).
Proof. intros H. destruct (L_head _ H) as (c & r & -> & Hc). cbn. apply vstart_nonws. exact Hc. Qed.
Lemma G_starts t b rest : G t b -> starts_nonws (b ++ rest).
Proof. intros H. exact (L_starts b rest (proj1 G_is_L t b H)). Qed.

(* One step of each loop, over the functions it calls: [parse_elems (S f)] is [elems_step] of [parse_value f] and
   [parse_elems f], and likewise for the scanner and for the reader that follows a struct. *)
Definition sep_step {X T} (close : N) (more : bytes -> list X -> option (T * bytes)) (fin : list X -> T)
    (r : bytes) (acc : list X) : option (T * bytes) :=
  match skip_ws r with
  | c :: r' => if c =? 44 then more r' acc else if c =? close then Some (fin (rev acc), r') else None
  | [] => None
  end.

Definition elems_step {V T} (value : bytes -> option (V * bytes)) (more : bytes -> list V -> option (T * bytes))
    (fin : list V -> T) (l : bytes) (acc : list V) : option (T * bytes) :=
  match value l with
  | None => None
  | Some (v, r) => sep_step 93 more fin r (v :: acc)
  end.

Definition members_step {K V M T} (key : bytes -> option (K * bytes)) (value : K -> bytes -> option (V * bytes))
    (mk : K -> V -> M) (more : bytes -> list M -> option (T * bytes)) (fin : list M -> T)
    (l : bytes) (acc : list M) : option (T * bytes) :=
  match skip_ws l with
  | c :: r =>
      if c =? 34 then
        match key r with
        | None => None
        | Some (k, r1) =>
            match skip_ws r1 with
            | d :: r2 =>
                if d =? 58 then
                  match value k r2 with
                  | None => None
                  | Some (v, r3) => sep_step 125 more fin r3 (mk k v :: acc)
                  end
                else None
            | [] => None
            end
        end
      else None
  | [] => None
  end.

Definition open_step {T} (close : N) (empty : T) (loop : bytes -> option (T * bytes)) (r : bytes) : option (T * bytes) :=
  match skip_ws r with
  | d :: r' => if d =? close then Some (empty, r') else loop (d :: r')
  | [] => None
  end.

Definition reads {X} (rd : nat -> bytes -> option (X * bytes)) (x : X) (b : bytes) : Prop :=
  forall w rest fuel, WS w -> ok_rest rest -> (List.length b < fuel)%nat -> rd fuel (w ++ b ++ rest) = Some (x, rest).
(* no condition on the rest: a bracketed sentence ends itself *)
Definition reads_any {X} (rd : nat -> bytes -> option (X * bytes)) (x : X) (b : bytes) : Prop :=
  forall w rest fuel, WS w -> (List.length b < fuel)%nat -> rd fuel (w ++ b ++ rest) = Some (x, rest).
Definition reads_seq {X A} (loop : nat -> bytes -> A -> option (X * bytes)) (res : A -> X) (b : bytes) : Prop :=
  forall w rest acc fuel, WS w -> (List.length b < fuel)%nat -> loop fuel (w ++ b ++ rest) acc = Some (res acc, rest).

Lemma reads_any_reads {X} {rd : nat -> bytes -> option (X * bytes)} {x b} : reads_any rd x b -> reads rd x b.
Proof. intros H w rest fuel Hw _. apply H. exact Hw. Qed.

(* serde_json's Deserializer::end *)
Definition end_of {X} (o : option (X * bytes)) : option X :=
  match o with
  | Some (t, r) => match skip_ws r with [] => Some t | _ => None end
  | None => None
  end.

Lemma end_of_reads {X} (rd : nat -> bytes -> option (X * bytes)) t b w w' : reads rd t b -> WS w -> WS w' ->
  end_of (rd (fuel_for (w ++ b ++ w')) (w ++ b ++ w')) = Some t.
Proof.
  intros Hb Hw Hw'. unfold end_of. rewrite (Hb w w').
  - rewrite (skip_ws_all _ Hw'). reflexivity.
  - exact Hw.
  - destruct Hw' as [|c r Hc _]; cbn; auto.
  - (* any fuel above the length of the sentence will do; fuel_for gives three times the length of the text *) unfold fuel_for. rewrite !app_length. lia.
Qed.

Lemma ok_rest_sep w c X : WS w -> c = 44 \/ c = 93 \/ c = 125 -> ok_rest (w ++ c :: X).
Proof.
  intros Hw Hc. destruct Hw as [|x w Hx _]; cbn [app ok_rest]; [right; exact Hc|left; exact Hx].
Qed.

Lemma sep_step_more {X T} close (more : bytes -> list X -> option (T * bytes)) fin w r acc :
  WS w -> sep_step close more fin (w ++ 44 :: r) acc = more r acc.
Proof. intros Hw. unfold sep_step. rewrite skip_ws_sep by tauto. reflexivity. Qed.

Lemma sep_step_last {X T} close (more : bytes -> list X -> option (T * bytes)) fin w rest acc :
  WS w -> close = 93 \/ close = 125 -> sep_step close more fin (w ++ close :: rest) acc = Some (fin (rev acc), rest).
Proof. intros Hw [-> | ->]; unfold sep_step; rewrite skip_ws_sep by tauto; reflexivity. Qed.

(* the sentences are nested appends; the readers see them flat *)
Ltac norm_app := repeat (rewrite <- app_assoc || (progress (cbn [app]))).
Ltac lens H := repeat (rewrite app_length in H || (progress (cbn [List.length] in H))).

Section Open.
  Context {X A : Type} {rd : nat -> bytes -> option (X * bytes)} {loop : nat -> bytes -> A -> option (X * bytes)}
          {o close : N} {empty : X} {a0 : A}.
  Hypothesis rd_open : forall f w r, WS w -> rd (S f) (w ++ o :: r) = open_step close empty (fun l => loop f l a0) r.
  Hypothesis closer : close = 93 \/ close = 125.

  Lemma open_empty w0 : WS w0 -> reads_any rd empty (o :: w0 ++ [close]).
  Proof.
    intros Hw0 w rest [|f] Hw Hf; [lia|]. norm_app. rewrite rd_open by exact Hw. unfold open_step.
    rewrite skip_ws_sep by tauto. rewrite N.eqb_refl. reflexivity.
  Qed.

  Lemma open_seq w0 b res : WS w0 -> starts vstart b -> reads_seq loop res b -> reads_any rd (res a0) (o :: w0 ++ b).
  Proof.
    intros Hw0 (c & r & -> & Hc) Hb w rest [|f] Hw Hf; [lia|]. lens Hf. norm_app.
    rewrite rd_open by exact Hw. unfold open_step. rewrite skip_ws_app by (exact Hw0 || apply vstart_nonws, Hc).
    replace (c =? close) with false by (unfold vstart, is_digit in Hc; lia).
    apply (Hb [] rest a0 f (Forall_nil _)). cbn [List.length]. lia.
  Qed.
End Open.

Section Elems.
  Context {V T : Type} {value : nat -> bytes -> option (V * bytes)}
          {loop more : nat -> bytes -> list V -> option (T * bytes)} {fin : list V -> T}.
  Hypothesis loop_S : forall f l acc, loop (S f) l acc = elems_step (value f) (more f) fin l acc.

  Lemma elems_last v b w2 : reads value v b -> WS w2 ->
    reads_seq loop (fun acc => fin (rev acc ++ [v])) (b ++ w2 ++ [93]).
  Proof.
    intros Hv Hw2 w rest acc [|f] Hw Hf; [lia|]. lens Hf. rewrite loop_S. unfold elems_step. norm_app.
    rewrite Hv; [|exact Hw|apply ok_rest_sep; [exact Hw2|tauto]|lia].
    rewrite sep_step_last by (assumption || tauto). reflexivity.
  Qed.

  Lemma elems_cons v b w2 w1 l b' : reads value v b -> WS w2 -> WS w1 ->
    reads_seq more (fun acc => fin (rev acc ++ l)) b' ->
    reads_seq loop (fun acc => fin (rev acc ++ v :: l)) (b ++ w2 ++ 44 :: w1 ++ b').
  Proof.
    intros Hv Hw2 Hw1 Hl w rest acc [|f] Hw Hf; [lia|]. lens Hf. rewrite loop_S. unfold elems_step. norm_app.
    rewrite Hv; [|exact Hw|apply ok_rest_sep; [exact Hw2|tauto]|lia].
    rewrite sep_step_more, Hl by (assumption || lia). cbn [rev]. rewrite <- app_assoc. reflexivity.
  Qed.
End Elems.

Section Members.
  Context {K V M T : Type} {key : nat -> bytes -> option (K * bytes)} {value : nat -> K -> bytes -> option (V * bytes)}
          {mk : K -> V -> M} {loop : nat -> bytes -> list M -> option (T * bytes)} {fin : list M -> T}.
  Hypothesis loop_S : forall f l acc, loop (S f) l acc = members_step (key (S f)) (value f) mk (loop f) fin l acc.

  Lemma member_value k kb w2 w3 v b : reads_key key k kb -> WS w2 -> WS w3 -> reads (fun f => value f k) v b ->
    forall more f w tail acc, WS w -> ok_rest tail -> (List.length kb <= S f)%nat -> (List.length b < f)%nat ->
      members_step (key (S f)) (value f) mk more fin (w ++ kb ++ w2 ++ 58 :: w3 ++ b ++ tail) acc
      = sep_step 125 more fin tail (mk k v :: acc).
  Proof.
    intros (r & -> & Hk) Hw2 Hw3 Hv more f w tail acc Hw Ht Hfk Hfv. unfold members_step. cbn [app].
    rewrite skip_ws_app by (exact Hw || reflexivity). rewrite Hk by exact Hfk. rewrite skip_ws_sep by tauto.
    rewrite (Hv w3 tail f Hw3 Ht Hfv). reflexivity.
  Qed.

  Lemma members_last k kb w2 w3 v b w4 :
    reads_key key k kb -> WS w2 -> WS w3 -> reads (fun f => value f k) v b -> WS w4 ->
    reads_seq loop (fun acc => fin (rev acc ++ [mk k v])) (kb ++ w2 ++ 58 :: w3 ++ b ++ w4 ++ [125]).
  Proof.
    intros Hk Hw2 Hw3 Hv Hw4 w rest acc [|f] Hw Hf; [lia|]. lens Hf. rewrite loop_S. norm_app.
    rewrite (member_value _ _ _ _ _ _ Hk Hw2 Hw3 Hv); [|exact Hw|apply ok_rest_sep; [exact Hw4|tauto]|lia|lia].
    rewrite sep_step_last by (assumption || tauto). reflexivity.
  Qed.

  Lemma members_cons k kb w2 w3 v b w4 w1 l b' :
    reads_key key k kb -> WS w2 -> WS w3 -> reads (fun f => value f k) v b -> WS w4 -> WS w1 ->
    reads_seq loop (fun acc => fin (rev acc ++ l)) b' ->
    reads_seq loop (fun acc => fin (rev acc ++ mk k v :: l)) (kb ++ w2 ++ 58 :: w3 ++ b ++ w4 ++ 44 :: w1 ++ b').
  Proof.
    intros Hk Hw2 Hw3 Hv Hw4 Hw1 Hl w rest acc [|f] Hw Hf; [lia|]. lens Hf. rewrite loop_S. norm_app.
    rewrite (member_value _ _ _ _ _ _ Hk Hw2 Hw3 Hv); [|exact Hw|apply ok_rest_sep; [exact Hw4|tauto]|lia|lia].
    rewrite sep_step_more, Hl by (assumption || lia). cbn [rev]. rewrite <- app_assoc. reflexivity.
  Qed.
End Members.

Lemma number_branch {A} c (a1 a2 a3 a4 a5 a6 : A) : c = 45 \/ is_digit c = true ->
  (if c =? 110 then a1 else if c =? 116 then a2 else if c =? 102 then a3 else if c =? 34 then a4
   else if (c =? 45) || is_digit c then a5 else a6) = a5.
Proof.
  unfold is_digit. intros Hc.
  assert (E : (c =? 110) = false /\ (c =? 116) = false /\ (c =? 102) = false /\ (c =? 34) = false /\
              ((c =? 45) || ((48 <=? c) && (c <=? 57))) = true) by lia.
  destruct E as (-> & -> & -> & -> & ->). reflexivity.
Qed.

Lemma parse_value_arr f w r : WS w ->
  parse_value (S f) (w ++ 91 :: r) = open_step 93 (JArr []) (fun l => parse_elems f l []) r.
Proof. intros Hw. cbn [parse_value]. rewrite skip_ws_app by (exact Hw || reflexivity). reflexivity. Qed.
Lemma parse_value_obj f w r : WS w ->
  parse_value (S f) (w ++ 123 :: r) = open_step 125 (JObj []) (fun l => parse_members f l []) r.
Proof. intros Hw. cbn [parse_value]. rewrite skip_ws_app by (exact Hw || reflexivity). reflexivity. Qed.
Lemma parse_elems_S f l acc : parse_elems (S f) l acc = elems_step (parse_value f) (parse_elems f) JArr l acc.
Proof. reflexivity. Qed.
Lemma parse_members_S f l acc :
  parse_members (S f) l acc
  = members_step (parse_string (S f)) (fun _ => parse_value f) (fun k v => (str_of k, v)) (parse_members f) JObj l acc.
Proof. reflexivity. Qed.

Theorem strict_reader_complete :
  (forall t b, G t b -> reads parse_value t b) /\
  (forall l b, GE l b -> reads_seq parse_elems (fun acc => JArr (rev acc ++ l)) b) /\
  (forall l b, GM l b -> reads_seq parse_members (fun acc => JObj (rev acc ++ l)) b).
Proof.
  apply G_GE_GM_ind.
  1-3: (* null, true, false *) intros w rest [|f] Hw _ Hf; [lia|]; cbn [parse_value];
       rewrite skip_ws_app by (exact Hw || reflexivity); reflexivity.
  - (* number *) intros n b Hn w rest [|f] Hw Hr Hf; [lia|]. cbn [parse_value].
    rewrite skip_ws_app by (exact Hw || exact (G_starts _ _ rest (G_num n b Hn))).
    pose proof (parse_number_G n b rest Hn Hr) as Hp. destruct (Gnum_head _ _ Hn) as (c & r & -> & Hc). cbn [app] in *.
    rewrite number_branch, Hp by exact Hc. reflexivity.
  - (* string *) intros s b Hs w rest [|f] Hw _ Hf; [lia|]. cbn [parse_value].
    destruct (Gstr_reads _ _ Hs) as (r & -> & Hk). cbn [app]. rewrite skip_ws_app by (exact Hw || reflexivity).
    rewrite Hk by lia. reflexivity.
  - (* [] *) intros w0 Hw0. apply reads_any_reads, (open_empty parse_value_arr); auto.
  - (* [elements] *) intros l w0 b Hw0 He IH.
    exact (reads_any_reads (open_seq parse_value_arr (or_introl eq_refl) w0 b _ Hw0 (LE_head _ (proj1 (proj2 G_is_L) _ _ He)) IH)).
  - (* {} *) intros w0 Hw0. apply reads_any_reads, (open_empty parse_value_obj); auto.
  - (* {members} *) intros l w0 b Hw0 Hm IH.
    exact (reads_any_reads (open_seq parse_value_obj (or_intror eq_refl) w0 b _ Hw0 (LM_head _ (proj2 (proj2 G_is_L) _ _ Hm)) IH)).
  - (* last element *) intros v b w2 _ IHv Hw2. apply (elems_last parse_elems_S); assumption.
  - (* element, comma, more *) intros v b w2 w1 l b' _ IHv Hw2 Hw1 _ IHe. apply (elems_cons parse_elems_S); assumption.
  - (* last member *) intros k kb w2 w3 v b w4 Hk Hw2 Hw3 _ IHv Hw4.
    apply (members_last parse_members_S); auto using Gstr_reads.
  - (* member, comma, more *) intros k kb w2 w3 v b w4 w1 l b' Hk Hw2 Hw3 _ IHv Hw4 Hw1 _ IHm.
    apply (members_cons parse_members_S); auto using Gstr_reads.
Qed.

Theorem strict_reader_reads_every_sentence t b : G t b ->
  forall w rest fuel, WS w -> ok_rest rest -> (List.length b < fuel)%nat ->
    parse_value fuel (w ++ b ++ rest) = Some (t, rest).
Proof. exact (proj1 strict_reader_complete t b). Qed.

Theorem parse_json_complete t b w w' : G t b -> WS w -> WS w' -> parse_json (w ++ b ++ w') = Some t.
Proof. intros g. exact (end_of_reads parse_value t b w w' (proj1 strict_reader_complete t b g)). Qed.

(* The scanner returns only what it has not read.  Seen as a reader of trees without content it has the shape of the
   other two, and what is proved of the loops applies. *)
Definition skipped (o : option bytes) : option (unit * bytes) := match o with Some r => Some (tt, r) | None => None end.
Definition scan_string (f : nat) (l : bytes) := skipped (skip_string f l).
Definition scan_value (f : nat) (l : bytes) := skipped (ignore_value f l).
Definition scan_elems (f : nat) (l : bytes) (_ : list unit) := skipped (ignore_elems f l).
Definition scan_members (f : nat) (l : bytes) (_ : list unit) := skipped (ignore_members f l).

Lemma skipped_Some o u r : skipped o = Some (u, r) <-> o = Some r.
Proof. destruct u, o as [r'|]; cbn; split; intros H; try discriminate; injection H as ->; reflexivity. Qed.

(* in the next four both sides branch on the same tests in the same order *)
Lemma scan_value_arr f w r : WS w -> scan_value (S f) (w ++ 91 :: r) = open_step 93 tt (fun l => scan_elems f l []) r.
Proof.
  intros Hw. unfold scan_value, scan_elems, open_step. cbn [ignore_value]. rewrite skip_ws_app by (exact Hw || reflexivity).
  destruct (skip_ws r) as [|d r']; [reflexivity|]. destruct (d =? 93); reflexivity.
Qed.
Lemma scan_value_obj f w r : WS w -> scan_value (S f) (w ++ 123 :: r) = open_step 125 tt (fun l => scan_members f l []) r.
Proof.
  intros Hw. unfold scan_value, scan_members, open_step. cbn [ignore_value]. rewrite skip_ws_app by (exact Hw || reflexivity).
  destruct (skip_ws r) as [|d r']; [reflexivity|]. destruct (d =? 125); reflexivity.
Qed.

Lemma scan_elems_S f l acc : scan_elems (S f) l acc = elems_step (scan_value f) (scan_elems f) (fun _ => tt) l acc.
Proof.
  unfold scan_elems, scan_value, elems_step, sep_step. cbn [ignore_elems].
  destruct (ignore_value f l) as [r|]; [|reflexivity]. cbn [skipped].
  destruct (skip_ws r) as [|c r']; [reflexivity|]. destruct (c =? 44); [reflexivity|]. destruct (c =? 93); reflexivity.
Qed.

Lemma scan_members_S f l acc :
  scan_members (S f) l acc
  = members_step (scan_string (S f)) (fun _ => scan_value f) (fun _ _ => tt) (scan_members f) (fun _ => tt) l acc.
Proof.
  unfold scan_members, scan_string, scan_value, members_step, sep_step. cbn [ignore_members].
  destruct (skip_ws l) as [|c r]; [reflexivity|]. destruct (c =? 34); [|reflexivity].
  destruct (skip_string (S f) r) as [r1|]; [|reflexivity]. cbn [skipped].
  destruct (skip_ws r1) as [|d r2]; [reflexivity|]. destruct (d =? 58); [|reflexivity].
  destruct (ignore_value f r2) as [r3|]; [|reflexivity]. cbn [skipped].
  destruct (skip_ws r3) as [|e r4]; [reflexivity|]. destruct (e =? 44); [reflexivity|]. destruct (e =? 125); reflexivity.
Qed.

Lemma Lstr_reads b : Lstr b -> reads_key scan_string tt b.
Proof.
  intros (ts & -> & Hb). exists (ts ++ [34]). split; [reflexivity|]. intros f rest Hf.
  cbn [List.length] in Hf. rewrite app_length in Hf.
  unfold scan_string, skip_string. rewrite <- app_assoc. cbn [app]. rewrite (str_body_lbody _ Hb) by lia. reflexivity.
Qed.

Theorem scanner_complete :
  (forall b, L b -> reads scan_value tt b) /\
  (forall b, LE b -> reads_seq scan_elems (fun _ => tt) b) /\
  (forall b, LM b -> reads_seq scan_members (fun _ => tt) b).
Proof.
  apply L_LE_LM_ind.
  1-3: (* null, true, false *) intros w rest [|f] Hw _ Hf; [lia|]; unfold scan_value; cbn [ignore_value];
       rewrite skip_ws_app by (exact Hw || reflexivity); reflexivity.
  - (* number *) intros n b Hn w rest [|f] Hw Hr Hf; [lia|]. unfold scan_value. cbn [ignore_value].
    rewrite skip_ws_app by (exact Hw || exact (L_starts _ rest (L_num n b Hn))).
    pose proof (parse_number_G n b rest Hn Hr) as Hp. destruct (Gnum_head _ _ Hn) as (c & r & -> & Hc). cbn [app] in *.
    rewrite number_branch, Hp by exact Hc. reflexivity.
  - (* string *) intros b Hs w rest [|f] Hw _ Hf; [lia|]. unfold scan_value. cbn [ignore_value].
    destruct (Lstr_reads _ Hs) as (r & -> & Hk). cbn [app]. rewrite skip_ws_app by (exact Hw || reflexivity).
    apply (Hk (S f) rest). lia.
  - (* [] *) intros w0 Hw0. apply reads_any_reads, (open_empty scan_value_arr); auto.
  - (* [elements] *) intros w0 b Hw0 He IH.
    exact (reads_any_reads (open_seq scan_value_arr (or_introl eq_refl) w0 b _ Hw0 (LE_head _ He) IH)).
  - (* {} *) intros w0 Hw0. apply reads_any_reads, (open_empty scan_value_obj); auto.
  - (* {members} *) intros w0 b Hw0 Hm IH.
    exact (reads_any_reads (open_seq scan_value_obj (or_intror eq_refl) w0 b _ Hw0 (LM_head _ Hm) IH)).
  - (* last element *) intros b w2 _ IHv Hw2. apply (elems_last scan_elems_S tt); assumption.
  - (* element, comma, more *) intros b w2 w1 b' _ IHv Hw2 Hw1 _ IHe. apply (elems_cons scan_elems_S tt b w2 w1 []); assumption.
  - (* last member *) intros kb w2 w3 b w4 Hk Hw2 Hw3 _ IHv Hw4.
    apply (members_last scan_members_S tt kb w2 w3 tt); auto using Lstr_reads.
  - (* member, comma, more *) intros kb w2 w3 b w4 w1 b' Hk Hw2 Hw3 _ IHv Hw4 Hw1 _ IHm.
    apply (members_cons scan_members_S tt kb w2 w3 tt b w4 w1 []); auto using Lstr_reads.
Qed.

Theorem scanner_skips_every_sentence b : L b ->
  forall w rest fuel, WS w -> ok_rest rest -> (List.length b < fuel)%nat -> ignore_value fuel (w ++ b ++ rest) = Some rest.
Proof. intros l w rest fuel Hw Hr Hf. apply (skipped_Some _ tt), (proj1 scanner_complete b l); assumption. Qed.

Definition sch_value (fs : list (string * schema)) (f : nat) (k : string) (l : bytes) : option (json * bytes) :=
  match field_of k fs with
  | Some sc' => parse_sch f sc' l
  | None => match ignore_value (S f) l with Some r3 => Some (JNull, r3) | None => None end
  end.

Lemma parse_sch_obj fs f w r : WS w ->
  parse_sch (S f) (SStruct fs) (w ++ 123 :: r) = open_step 125 (JObj []) (fun l => sch_members f fs l []) r.
Proof. intros Hw. cbn [parse_sch]. rewrite skip_ws_app by (exact Hw || reflexivity). reflexivity. Qed.
Lemma parse_sch_arr fs f w r : WS w ->
  parse_sch (S f) (SStruct fs) (w ++ 91 :: r) = open_step 93 (JArr []) (fun l => sch_elems f fs l []) r.
Proof. intros Hw. cbn [parse_sch]. rewrite skip_ws_app by (exact Hw || reflexivity). reflexivity. Qed.
Lemma sch_elems_S fs f l acc :
  sch_elems (S f) fs l acc = elems_step (parse_sch f (hd_schema fs)) (sch_elems f (tl fs)) JArr l acc.
Proof. reflexivity. Qed.
Lemma sch_members_S fs f l acc :
  sch_members (S f) fs l acc
  = members_step (parse_string (S f)) (fun k => sch_value fs f (str_of k)) (fun k v => (str_of k, v)) (sch_members f fs) JObj l acc.
Proof. reflexivity. Qed.

Theorem schema_reader_complete :
  (forall sc t b, GS sc t b -> reads (fun f => parse_sch f sc) t b) /\
  (forall fs l b, GSM fs l b -> reads_seq (fun f => sch_members f fs) (fun acc => JObj (rev acc ++ l)) b) /\
  (forall fs k v b, GSV fs k v b -> reads (fun f => sch_value fs f k) v b) /\
  (forall fs l b, GSE fs l b -> reads_seq (fun f => sch_elems f fs) (fun acc => JArr (rev acc ++ l)) b).
Proof.
  apply GS_all_ind.
  - (* leaf *) intros t b g w rest [|f] Hw Hr Hf; [lia|]. cbn [parse_sch].
    apply strict_reader_reads_every_sentence; assumption.
  - (* neither an object nor an array *) intros fs t b g Hno Hna w rest [|f] Hw Hr Hf; [lia|]. cbn [parse_sch].
    rewrite skip_ws_app by (exact Hw || exact (G_starts _ _ rest g)).
    pose proof (strict_reader_reads_every_sentence t b g w rest (S f) Hw Hr Hf) as Hp.
    destruct (G_head _ _ g) as (c & r & -> & _). cbn [app] in *.
    rewrite (proj2 (N.eqb_neq c 123)) by (intros ->; exact (Hno r eq_refl)).
    rewrite (proj2 (N.eqb_neq c 91)) by (intros ->; exact (Hna r eq_refl)).
    exact Hp.
  - (* {} *) intros fs w0 Hw0.
    apply reads_any_reads, (open_empty (rd := fun f => parse_sch f (SStruct fs)) (loop := fun f => sch_members f fs) (parse_sch_obj fs)); auto.
  - (* {members} *) intros fs l w0 b Hw0 Hm IH. destruct (GSM_head _ _ _ Hm) as (r & ->).
    exact (reads_any_reads (open_seq (rd := fun f => parse_sch f (SStruct fs)) (loop := fun f => sch_members f fs)
             (parse_sch_obj fs) (or_intror eq_refl) w0 _ _ Hw0 (starts_quote r) IH)).
  - (* [] *) intros fs w0 Hw0.
    apply reads_any_reads, (open_empty (rd := fun f => parse_sch f (SStruct fs)) (loop := fun f => sch_elems f fs) (parse_sch_arr fs)); auto.
  - (* [elements] *) intros fs l w0 b Hw0 He IH.
    exact (reads_any_reads (open_seq (rd := fun f => parse_sch f (SStruct fs)) (loop := fun f => sch_elems f fs)
             (parse_sch_arr fs) (or_introl eq_refl) w0 b _ Hw0 (GSE_head _ _ _ He) IH)).
  - (* last member *) intros fs k kb w2 w3 v b w4 Hk Hw2 Hw3 _ IHv Hw4.
    apply (members_last (loop := fun f => sch_members f fs) (sch_members_S fs)); auto using Gstr_reads.
  - (* member, comma, more *) intros fs k kb w2 w3 v b w4 w1 l b' Hk Hw2 Hw3 _ IHv Hw4 Hw1 _ IHm.
    apply (members_cons (loop := fun f => sch_members f fs) (sch_members_S fs)); auto using Gstr_reads.
  - (* value of a known key *) intros fs k sc v b Hk g IH w rest f Hw Hr Hf. unfold sch_value. rewrite Hk. apply IH; assumption.
  - (* value of an unknown key *) intros fs k b Hk l w rest f Hw Hr Hf. unfold sch_value.
    rewrite Hk, (scanner_skips_every_sentence b l w rest (S f) Hw Hr) by lia. reflexivity.
  - (* last element *) intros fs v b w2 _ IHv Hw2.
    apply (elems_last (loop := fun f => sch_elems f fs) (sch_elems_S fs)); assumption.
  - (* element, comma, more *) intros fs v b w2 w1 l b' _ IHv Hw2 Hw1 _ IHe.
    apply (elems_cons (loop := fun f => sch_elems f fs) (sch_elems_S fs)); assumption.
Qed.

Theorem parse_body_complete sc t b w w' : GS sc t b -> WS w -> WS w' -> parse_body sc (w ++ b ++ w') = Some t.
Proof. intros g. exact (end_of_reads (fun f => parse_sch f sc) t b w w' (proj1 schema_reader_complete sc t b g)). Qed.
