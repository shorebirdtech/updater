(* Frame lemmas at the level of critical sections: selections (next / last good /
   booting) with intact artifacts survive every section that does not concern their number
   (C09, C03, C18); rolled-back numbers stay gone (C10); records only move between slots. *)
From UV Require Import Base Model PMLemmas Sections Inv Frame.

Section Frames2.
Variable sha : bytes -> bytes.
Variable sigok : string -> string -> string -> bool.
Variable zdec : bytes -> bytes.
Variable base : bytes.

Notation validate := (validate sha sigok).
Notation fall_back := (fall_back sha sigok).
Notation next_boot := (next_boot sha sigok).
Notation cs_next := (cs_next sha sigok).
Notation cs_start := (cs_start sha sigok).
Notation cs_rollback := (cs_rollback sha sigok).
Notation sec_pm := (sec_pm sha sigok).
Notation sec_disk := (sec_disk sha sigok).
Notation Isame := Frame.Isame.

Definition new_meta (p : patch) (out : bytes) : meta :=
  {| m_num := p_num p; m_size := blen out; m_hash := p_hash p; m_sig := p_sig p |}.

Inductive slot := SLB | SNB | SCB.
Definition getslot (sl : slot) (s : pstate) : option meta :=
  match sl with SLB => lb s | SNB => nb s | SCB => cb s end.

Definition Sel (sl : slot) (key : option string) (d : disk) (s : pstate) (m : meta) : Prop :=
  Isame s /\ getslot sl s = Some m /\ validate key d m = true.
Definition SelD (sl : slot) (key : option string) (d : disk) (m : meta) : Prop :=
  Sel sl key d (load_p d) m.

Lemma Sel_ext sl key d d' s m :
  arts d' (m_num m) = arts d (m_num m) -> Sel sl key d s m -> Sel sl key d' s m.
Proof. intros E (I & G & V). repeat split; auto. rewrite <- V. apply validate_arts. exact E. Qed.

Lemma SelD_core sl key d d' m :
  load_p d' = load_p d -> arts d' = arts d -> SelD sl key d m -> SelD sl key d' m.
Proof. unfold SelD. intros -> E. apply Sel_ext. rewrite E. reflexivity. Qed.

Lemma getslot_slots sl s m : getslot sl s = Some m -> In (Some m) (slots s).
Proof. intros H. apply in_slots. destruct sl; cbn in H; auto. Qed.

(* under I-same an intact record answers for its number: another record of that number is it *)
Lemma Sel_same sl key d s m x :
  Sel sl key d s m -> In (Some x) (slots s) -> m_num x = m_num m -> validate key d x = true.
Proof. intros (I & G & V) Hx E. rewrite (I x m Hx (getslot_slots sl s m G) E). exact V. Qed.

Lemma fall_back_Sel sl key d s b m :
  Sel sl key d s m -> m_num m <> b ->
  Sel sl key (fst (fall_back key d s b)) (snd (fall_back key d s b)) m.
Proof.
  intros H Hb. pose proof H as (I & G & V).
  assert (V' : validate key (fst (fall_back key d s b)) m = true).
  { rewrite <- V. apply validate_arts, fall_back_arts_kept; [exact Hb|].
    intros l El En. apply (Sel_same sl key d s m l H); [apply in_slots; auto|exact En]. }
  split; [apply fall_back_Isame, I|]. split; [|exact V'].
  destruct sl; cbn [getslot] in G |- *.
  - rewrite fall_back_lb. unfold lb_kept. rewrite G, validate_del, V.
    apply N.eqb_neq in Hb. rewrite Hb. reflexivity.
  - apply fall_back_nb_kept; assumption.
  - rewrite fall_back_cb. exact G.
Qed.

Definition sec_spares (sl : slot) (m : meta) (k : section) (s : pstate) : Prop :=
  match k with
  | SRead | SClear | SNext => True
  | SStart => sl <> SCB
  | SSuccess => match sl with
                | SNB => True
                | SLB => forall b, cb s = Some b -> m_num b = m_num m
                | SCB => False
                end
  | SFail _ => sl <> SCB /\ forall b, cb s = Some b -> m_num b <> m_num m
  | SRollback l => ~ In (m_num m) l
  | SInstall p out =>
      inb (p_num p) (bad s) = false ->
      sl <> SNB /\ m_num m <> p_num p /\ consistent s (new_meta p out)
  end.

Lemma next_boot_Sel sl key d s m :
  Sel sl key d s m -> Sel sl key (fst (fst (next_boot key d s))) (snd (fst (next_boot key d s))) m.
Proof.
  intros H. apply (next_boot_pres sha sigok (fun z => Sel sl key (fst z) (snd z) m)); [|exact H].
  (* an invalid selection does not carry m's number: under I-same it would be m, which is valid *)
  intros x Ex Vx. apply fall_back_Sel; [exact H|]. intros E.
  rewrite (Sel_same sl key d s m x H) in Vx; [discriminate|apply in_slots; auto|auto].
Qed.

(* an install deletes only the pending patch's artifact, and only if it is neither last good nor booting *)
Lemma add_patch_arts_other d s n b h sg k :
  k <> n ->
  (forall x l, nb s = Some x -> lb s = Some l -> m_num x = k ->
               m_num l = k \/ numeq (cb s) k = true) ->
  arts (fst (add_patch d s n b h sg)) k = arts d k.
Proof.
  intros Hk Hx. unfold add_patch. cbn [fst].
  destruct (nb s) as [x|] eqn:En; [destruct (lb s) as [l|] eqn:El|]; cbn;
    try (apply upd_art_other; auto).
  destruct (negb (N.eqb (m_num l) (m_num x)) && negb (N.eqb (m_num x) n) &&
            negb (numeq (cb s) (m_num x))) eqn:E; cbn; try (apply upd_art_other; auto).
  destruct (N.eqb_spec k (m_num x)) as [->|Hne].
  - exfalso. apply andb_prop in E. destruct E as [E E3]. apply andb_prop in E. destruct E as [E1 E2].
    destruct (Hx x l eq_refl eq_refl eq_refl) as [H|H].
    + rewrite H, N.eqb_refl in E1. discriminate.
    + rewrite H in E3. discriminate.
  - rewrite upd_art_other by auto. apply upd_art_other; auto.
Qed.

Lemma boot_success_promotes key d s m :
  Sel SCB key d s m -> Sel SLB key (fst (boot_success d s)) (snd (boot_success d s)) m.
Proof.
  clear zdec base. intros (I & G & V). pose proof (boot_success_Isame d s I) as I'.
  cbn [getslot] in G. unfold boot_success in *. rewrite G in *. cbn [fst snd] in *.
  split; [exact I'|]. split; [reflexivity|]. rewrite validate_save, validate_sweep, N.ltb_irrefl. exact V.
Qed.

Lemma sec_pm_Sel sl key k d s m :
  Sel sl key d s m -> sec_spares sl m k s ->
  Sel sl key (fst (sec_pm key k d s)) (snd (sec_pm key k d s)) m.
Proof.
  clear zdec base. intros H Hk. pose proof H as (I & G & V). destruct k; cbn [Sections.sec_pm sec_spares] in Hk |- *; auto.
  - (* SNext *) apply next_boot_Sel, H.
  - (* SStart *) pose proof (next_boot_Sel sl key d s m H) as (I1 & G1 & V1).
    destruct (next_boot key d s) as [[d1 s1] [n|]]; cbn [fst snd] in I1, G1, V1 |- *; [|repeat split; assumption].
    split; [apply start_Isame, I1|]. split; [destruct sl; try contradiction; exact G1|exact V1].
  - (* SSuccess *) destruct (cb s) as [b|] eqn:Ec; [|unfold boot_success; rewrite Ec; exact H].
    destruct sl; [| |contradiction]; cbn [getslot] in G.
    + (* last good: the booting record carries m's number, so it is m *)
      assert (b = m) as -> by (apply I; [apply in_slots|apply in_slots|apply Hk]; auto).
      apply boot_success_promotes. repeat split; assumption.
    + split; [apply boot_success_Isame, I|]. unfold boot_success. rewrite Ec. cbn [fst snd getslot nb].
      split; [exact G|]. rewrite validate_save, validate_sweep. cbn [nb]. rewrite G. cbn [numeq].
      rewrite N.eqb_refl, andb_false_r. exact V.
  - (* SFail *) destruct Hk as [Hs Hc]. destruct (cb s) as [b|] eqn:Ec; [|exact H]. apply fall_back_Sel.
    + split; [apply unboot_Isame, I|]. split; [destruct sl; try contradiction; exact G|exact V].
    + intros E. apply (Hc b eq_refl). auto.
  - (* SRollback *) apply (rollback_loop_pres sha sigok (fun z => Sel sl key (fst z) (snd z) m)); [|exact H].
    intros d1 s1 x Hx H1. apply fall_back_Sel; [exact H1|]. intros <-. contradiction.
  - (* SInstall *) destruct (inb (p_num p) (bad s)); [exact H|]. destruct (Hk eq_refl) as (Hs & Hn & C).
    split; [apply add_patch_Isame; assumption|]. split; [destruct sl; try contradiction; exact G|].
    rewrite <- V. apply validate_arts, add_patch_arts_other; [exact Hn|].
    (* the pending record would be deleted only if no last good or booting record had its number *)
    intros x l _ El _. destruct sl; [|contradiction|]; cbn [getslot] in G.
    + left. rewrite G in El. injection El as <-. reflexivity.
    + right. rewrite G. cbn. apply N.eqb_refl.
Qed.

Theorem sec_SelD sl c k d m :
  stable (c_rel c) d -> SelD sl (c_key c) d m -> sec_spares sl m k (load_p d) ->
  SelD sl (c_key c) (sec_disk c k d) m.
Proof.
  intros S H Hk. apply (sec_lift sha sigok (fun x s => Sel sl (c_key c) x s m)); [intros x s v; apply Sel_ext; reflexivity|].
  rewrite (norm_id c d S). apply sec_pm_Sel; assumption.
Qed.

Theorem selected_is_reported c d m :
  stable (c_rel c) d -> SelD SNB (c_key c) d m -> cs_next c d = (d, Some (m_num m)).
Proof.
  intros S (I & G & V). unfold Model.cs_next. rewrite (norm_id c d S).
  rewrite (next_boot_valid sha sigok (c_key c) d (load_p d) m G V). reflexivity.
Qed.

Lemma cs_start_sets_CB c d m :
  stable (c_rel c) d -> SelD SNB (c_key c) d m -> SelD SCB (c_key c) (cs_start c d) m.
Proof.
  intros S (I & G & V). unfold Model.cs_start. rewrite (norm_id c d S).
  rewrite (next_boot_valid sha sigok (c_key c) d (load_p d) m G V).
  unfold SelD. rewrite load_save. split; [apply start_Isame; auto|]. split; [exact G|exact V].
Qed.

Lemma cs_success_promotes c d m :
  stable (c_rel c) d -> SelD SCB (c_key c) d m -> SelD SLB (c_key c) (fst (cs_success c d)) m.
Proof.
  intros S H. apply (sec_lift sha sigok (fun x s => Sel SLB (c_key c) x s m) c SSuccess); [intros x s v; apply Sel_ext; reflexivity|].
  rewrite (norm_id c d S). apply boot_success_promotes, H.
Qed.

Definition not_listed (k : N) (rs : resp) : Prop :=
  match r_rb rs with Some l => ~ In k l | None => True end.

Lemma not_listed_spec k rs l : not_listed k rs -> listed (Some rs) l -> ~ In k l.
Proof. intros H (rs' & E & El). injection E as <-. unfold not_listed in H. rewrite El in H. exact H. Qed.

Definition SlotsSub (d d' : disk) : Prop :=
  forall a, In (Some a) (slots (load_p d')) -> In (Some a) (slots (load_p d)).

Lemma SlotsSub_refl d : SlotsSub d d.
Proof. intros a H. exact H. Qed.
Lemma SlotsSub_trans d1 d2 d3 : SlotsSub d1 d2 -> SlotsSub d2 d3 -> SlotsSub d1 d3.
Proof. intros H1 H2 a H. apply H1, H2, H. Qed.

Lemma SlotsSub_norm c d : SlotsSub d (norm c d).
Proof. destruct (norm_cases c d) as [-> | ->]; [apply SlotsSub_refl|]. intros m [H|[H|[H|[]]]]; discriminate. Qed.

Theorem sec_slots c k d a :
  In (Some a) (slots (load_p (sec_disk c k d))) ->
  In (Some a) (slots (load_p d)) \/
  exists p out, k = SInstall p out /\ snd (cs_install c d p out) = UInstalled /\ a = new_meta p out.
Proof.
  apply (sec_lift sha sigok (fun _ s => In (Some a) (slots s) ->
           In (Some a) (slots (load_p d)) \/
           exists p out, k = SInstall p out /\ snd (cs_install c d p out) = UInstalled /\ a = new_meta p out));
    [auto|].
  intros H. apply sec_pm_slots in H. destruct H as [H|(p & out & -> & Eb & ->)].
  - left. apply SlotsSub_norm in H. exact H.
  - right. exists p, out. unfold Model.cs_install. rewrite Eb. auto.
Qed.

Definition consistent_offer (d : disk) (new : meta) : Prop :=
  forall a, In (Some a) (slots (load_p d)) -> m_num a = m_num new -> a = new.

Lemma consistent_offer_sub d d' new :
  SlotsSub d d' -> consistent_offer d new -> consistent (load_p d') new.
Proof. intros Hs Hc a Ha. apply Hc, Hs, in_slots. tauto. Qed.

Definition goneD (d : disk) (x : N) : Prop := gone d (load_p d) x.

Lemma goneD_norm c d x : goneD d x -> goneD (norm c d) x.
Proof. intros H. destruct (norm_cases c d) as [-> | ->]; [exact H|split; reflexivity]. Qed.

Theorem sec_goneD c k d x :
  goneD d x -> (forall p out, k = SInstall p out -> snd (cs_install c d p out) = UInstalled -> x <> p_num p) ->
  goneD (sec_disk c k d) x.
Proof.
  intros H Hk. apply (sec_lift sha sigok (fun y s => gone y s x)); [auto|].
  apply sec_pm_gone; [apply goneD_norm, H|]. intros p out -> Eb. apply (Hk p out eq_refl).
  unfold Model.cs_install. rewrite Eb. reflexivity.
Qed.

Lemma cs_rollback_makes_goneD c d l x : In x l -> goneD (cs_rollback c d l) x.
Proof.
  intros Hin. apply (sec_lift sha sigok (fun y s => gone y s x) c (SRollback l)); [auto|].
  apply rollback_loop_makes_gone, Hin.
Qed.

Definition installs (r : option resp) (x : N) : Prop :=
  exists rs p, r = Some rs /\ r_patch rs = Some p /\ p_num p = x.

End Frames2.
