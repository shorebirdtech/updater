(* The converse of JsonTextProofs: whatever a reader accepts IS a sentence of its grammar
   (optional white space, then a sentence denoting the returned tree, then the unread rest).  With completeness:
   the language of each reader is exactly its grammar; a body that is not JSON is rejected.  At the end, the reader of a
   whole text as a struct, [body_reader], of which the three readers of the model are instances. *)
From UV Require Import Base Codec Model Json JsonText JsonTextProofs.
From Coq Require Import ZifyN ZifyBool ZifyNat Lia.
Local Open Scope N_scope.

Lemma skip_ws_split l : exists w, WS w /\ l = w ++ skip_ws l /\ starts_nonws (skip_ws l).
Proof.
  induction l as [|c r IH].
  - exists []. cbn. repeat split. constructor.
  - cbn [skip_ws]. destruct (is_ws c) eqn:E.
    + destruct IH as (w & Hw & El & Hs). exists (c :: w). split; [constructor; assumption|]. split; [cbn; congruence|exact Hs].
    + exists []. split; [constructor|]. split; [reflexivity|]. cbn. exact E.
Qed.

Lemma skip_ws_cons l c r : skip_ws l = c :: r -> exists w, WS w /\ l = w ++ c :: r.
Proof. intros E. destruct (skip_ws_split l) as (w & Hw & El & _). exists w. rewrite <- E. split; assumption. Qed.

Lemma skip_ws_nil l : skip_ws l = [] -> WS l.
Proof. intros E. destruct (skip_ws_split l) as (w & Hw & El & _). rewrite E, app_nil_r in El. subst l. exact Hw. Qed.

Lemma hex4_sound l n r : hex4 l = Some (n, r) -> exists a b c d, l = a :: b :: c :: d :: r /\ hex4 [a; b; c; d] = Some (n, []).
Proof.
  unfold hex4. destruct l as [|a [|b [|c [|d r']]]]; try discriminate.
  destruct (hexv a) eqn:Ea; [|discriminate]. destruct (hexv b) eqn:Eb; [|discriminate].
  destruct (hexv c) eqn:Ec; [|discriminate]. destruct (hexv d) eqn:Ed; [|discriminate].
  intros H. injection H as <- <-. exists a, b, c, d. split; [reflexivity|]. rewrite Ea, Eb, Ec, Ed. reflexivity.
Qed.

(* one more item in front of a body read with that item's bytes already accumulated *)
Lemma body_cons t d acc s rest l : Item t d ->
  (exists ts ds, l = ts ++ 34 :: rest /\ Body ts ds /\ s = rev (rev d ++ acc) ++ ds) ->
  exists ts ds, t ++ l = ts ++ 34 :: rest /\ Body ts ds /\ s = rev acc ++ ds.
Proof.
  intros Hi (ts & ds & -> & Hb & ->). exists (t ++ ts), (d ++ ds).
  rewrite <- app_assoc, rev_app_distr, rev_involutive, <- app_assoc. repeat split. constructor; assumption.
Qed.

Lemma str_body_sound f : forall l acc s rest, str_body f true l acc = Some (s, rest) ->
  exists ts ds, l = ts ++ 34 :: rest /\ Body ts ds /\ s = rev acc ++ ds.
Proof.
  induction f as [|f IH]; intros l acc s rest H; [discriminate|]. cbn [str_body] in H.
  destruct l as [|c r]; [discriminate|].
  destruct (N.eqb_spec c 34) as [->|N34].
  { injection H as <- <-. exists [], []. rewrite app_nil_r. repeat split. constructor. }
  destruct (N.eqb_spec c 92) as [->|N92].
  2: { destruct (N.ltb_spec c 32); [discriminate|].
       apply IH, (body_cons [c] [c]) in H; [exact H|constructor; assumption]. }
  destruct r as [|e r1]; [discriminate|]. destruct (N.eqb_spec e 117) as [->|N117].
  2: { destruct (simple_escape e) as [b|] eqn:Ee; [|discriminate].
       apply IH, (body_cons [92; e] [b]) in H; [exact H|constructor; assumption]. }
  destruct (hex4 r1) as [[n r2]|] eqn:Eh; [|discriminate]. destruct (hex4_sound _ _ _ Eh) as (a & b & c & d & -> & Eh4).
  destruct (is_low_surrogate n) eqn:El; [discriminate|]. destruct (is_high_surrogate n) eqn:Ehi.
  2: { apply IH, (body_cons [92; 117; a; b; c; d] (utf8_enc n)) in H; [exact H|constructor; assumption]. }
  (* a high surrogate: the low one must follow *)
  destruct r2 as [|x [|y r3]]; try discriminate. destruct ((x =? 92) && (y =? 117)) eqn:Exy; [|discriminate].
  assert (x = 92 /\ y = 117) as [-> ->] by lia.
  destruct (hex4 r3) as [[n2 r4]|] eqn:Eh2; [|discriminate].
  destruct (hex4_sound _ _ _ Eh2) as (a2 & b2 & c2 & d2 & -> & Eh42).
  destruct (is_low_surrogate n2) eqn:El2; [|discriminate].
  apply IH, (body_cons [92; 117; a; b; c; d; 92; 117; a2; b2; c2; d2] _) in H; [exact H|econstructor; eassumption].
Qed.

Lemma lbody_cons t rest l : LItem t -> (exists ts, l = ts ++ 34 :: rest /\ LBody ts) ->
  exists ts, t ++ l = ts ++ 34 :: rest /\ LBody ts.
Proof. intros Hi (ts & -> & Hb). exists (t ++ ts). rewrite <- app_assoc. split; [reflexivity|constructor; assumption]. Qed.

Lemma str_body_lsound f : forall l acc s rest, str_body f false l acc = Some (s, rest) ->
  exists ts, l = ts ++ 34 :: rest /\ LBody ts.
Proof.
  induction f as [|f IH]; intros l acc s rest H; [discriminate|]. cbn [str_body] in H.
  destruct l as [|c r]; [discriminate|].
  destruct (N.eqb_spec c 34) as [->|N34].
  { injection H as _ <-. exists []. split; [reflexivity|constructor]. }
  destruct (N.eqb_spec c 92) as [->|N92].
  2: { destruct (N.ltb_spec c 32); [discriminate|]. apply IH, (lbody_cons [c]) in H; [exact H|constructor; assumption]. }
  destruct r as [|e r1]; [discriminate|]. destruct (N.eqb_spec e 117) as [->|N117].
  2: { destruct (simple_escape e) as [b|] eqn:Ee; [|discriminate].
       apply IH, (lbody_cons [92; e]) in H; [exact H|econstructor; eassumption]. }
  destruct (hex4 r1) as [[n r2]|] eqn:Eh; [|discriminate]. destruct (hex4_sound _ _ _ Eh) as (a & b & c & d & -> & Eh4).
  apply IH, (lbody_cons [92; 117; a; b; c; d]) in H; [exact H|econstructor; eassumption].
Qed.

Definition sound_key {K} (key : bytes -> option (K * bytes)) (P : K -> bytes -> Prop) : Prop :=
  forall r k rest, key r = Some (k, rest) -> exists kb, P k kb /\ 34 :: r = kb ++ rest.

Lemma parse_string_sound f : sound_key (parse_string f) Gstr.
Proof.
  intros r s rest. unfold parse_string. destruct (str_body f true r []) as [[s' r']|] eqn:E; [|discriminate].
  destruct (utf8_valid s') eqn:Ev; [|discriminate]. intros H. injection H as <- <-.
  apply str_body_sound in E. destruct E as (ts & ds & -> & Hb & ->).
  exists (34 :: ts ++ [34]). split; [|norm_app; reflexivity]. exists ts. repeat split; assumption.
Qed.

Lemma scan_string_sound f : sound_key (scan_string f) (fun _ => Lstr).
Proof.
  intros r u rest H. apply skipped_Some in H. unfold skip_string in H.
  destruct (str_body f false r []) as [[s r']|] eqn:E; [|discriminate]. injection H as <-.
  apply str_body_lsound in E. destruct E as (ts & -> & Hb).
  exists (34 :: ts ++ [34]). split; [|norm_app; reflexivity]. exists ts. split; [reflexivity|exact Hb].
Qed.

Lemma digits_sound l : forall acc cnt v cnt' rest, digits l acc cnt = (v, cnt', rest) ->
  exists ds, l = ds ++ rest /\ AllDig ds /\ v = val_from acc ds /\ cnt' = cnt + N.of_nat (List.length ds) /\ nondigit_start rest.
Proof.
  induction l as [|c r IH]; intros acc cnt v cnt' rest H; cbn [digits] in H.
  - injection H as <- <- <-. exists []. cbn. repeat split; try constructor. lia.
  - destruct (is_digit c) eqn:E.
    + apply IH in H. destruct H as (ds & -> & Hd & -> & -> & Hn). exists (c :: ds). cbn [app List.length val_from fold_left].
      repeat split; try assumption; try (constructor; assumption). lia.
    + injection H as <- <- <-. exists []. cbn. repeat split; try constructor; try assumption. lia.
Qed.

Lemma digits_some l v cnt r : digits l 0 0 = (v, cnt, r) -> (cnt =? 0) = false ->
  exists ds, l = ds ++ r /\ AllDig ds /\ ds <> [].
Proof.
  intros H Hc. apply digits_sound in H. destruct H as (ds & -> & Hd & _ & -> & _).
  exists ds. repeat split; [exact Hd|]. intros ->. discriminate.
Qed.

Lemma exp_sign_sound r : exists sg, (sg = [] \/ sg = [43] \/ sg = [45]) /\ r = sg ++ exp_sign r.
Proof.
  destruct r as [|s r']; [exists []; auto|]. cbn [exp_sign]. destruct ((s =? 43) || (s =? 45)) eqn:E; [|exists []; auto].
  assert (s = 43 \/ s = 45) as [-> | ->] by lia; [exists [43]|exists [45]]; auto.
Qed.

Lemma exp_part_sound isf neg v l n rest : exp_part isf neg v l = Some (n, rest) ->
  exists ex ise, l = ex ++ rest /\ Expo ex ise /\ n = (if ise then JFloat else classify isf neg v).
Proof.
  unfold exp_part. destruct l as [|c r].
  { intros H. injection H as <- <-. exists [], false. repeat split. constructor. }
  destruct ((c =? 101) || (c =? 69)) eqn:Ec.
  2: { intros H. injection H as <- <-. exists [], false. repeat split. constructor. }
  destruct (exp_sign_sound r) as (sg & Hsg & Er). destruct (digits (exp_sign r) 0 0) as [[v0 cnt] r2] eqn:Ed.
  destruct (cnt =? 0) eqn:E0; [discriminate|]. intros H. injection H as <- <-.
  destruct (digits_some _ _ _ _ Ed E0) as (ds & Eds & Hd & Hne).
  exists (c :: sg ++ ds), true. split; [rewrite Er, Eds; norm_app; reflexivity|]. split; [|reflexivity].
  constructor; [lia|exact Hsg|exact Hne|exact Hd].
Qed.

Lemma frac_part_sound l isf l2 : frac_part l = Some (isf, l2) -> exists fr, l = fr ++ l2 /\ Frac fr isf.
Proof.
  unfold frac_part. destruct l as [|c r].
  { intros H. injection H as <- <-. exists []. split; [reflexivity|constructor]. }
  destruct (N.eqb_spec c 46) as [->|_].
  2: { intros H. injection H as <- <-. exists []. split; [reflexivity|constructor]. }
  destruct (digits r 0 0) as [[v0 cnt] r'] eqn:Ed. destruct (cnt =? 0) eqn:E0; [discriminate|].
  intros H. injection H as <- <-. destruct (digits_some _ _ _ _ Ed E0) as (ds & -> & Hd & Hne).
  exists (46 :: ds). split; [reflexivity|constructor; assumption].
Qed.

Lemma frac_exp_sound neg v l n rest : frac_exp neg v l = Some (n, rest) ->
  exists fr isf ex ise, l = fr ++ ex ++ rest /\ Frac fr isf /\ Expo ex ise /\
    n = (if ise then JFloat else classify isf neg v).
Proof.
  rewrite frac_exp_parts. destruct (frac_part l) as [[isf l2]|] eqn:Ef; [|discriminate]. intros He.
  apply frac_part_sound in Ef. destruct Ef as (fr & -> & Hf).
  apply exp_part_sound in He. destruct He as (ex & ise & -> & He & ->).
  exists fr, isf, ex, ise. repeat split; assumption.
Qed.

Lemma int_part_sound neg l n rest : int_part neg l = Some (n, rest) ->
  exists ip v fr isf ex ise, l = ip ++ fr ++ ex ++ rest /\ IntPart ip v /\ Frac fr isf /\ Expo ex ise /\
    n = (if ise then JFloat else classify isf neg v).
Proof.
  unfold int_part. destruct l as [|c r]; [discriminate|]. intros H.
  destruct (N.eqb_spec c 48) as [->|N48].
  - assert (Hf : frac_exp neg 0 r = Some (n, rest)).
    { destruct r as [|d r']; [exact H|]. destruct (is_digit d); [discriminate|exact H]. }
    apply frac_exp_sound in Hf. destruct Hf as (fr & isf & ex & ise & -> & Hfr & Hex & ->).
    exists [48], 0, fr, isf, ex, ise. repeat split; try assumption. constructor.
  - destruct (is_digit c) eqn:Ed; [|discriminate].
    destruct (digits (c :: r) 0 0) as [[v0 cnt] r'] eqn:Edg.
    apply digits_sound in Edg. destruct Edg as ([|d0 ds] & El & Hd & -> & _ & Hnd); cbn [app] in El.
    + subst r'. cbn in Hnd. congruence.
    + injection El as <- ->. inversion Hd as [|? ? Hd0 Hds]; subst.
      apply frac_exp_sound in H. destruct H as (fr & isf & ex & ise & -> & Hfr & Hex & ->).
      exists (c :: ds), (val_from 0 (c :: ds)), fr, isf, ex, ise. repeat split; try assumption. constructor; assumption.
Qed.

Lemma parse_number_sound l n rest : parse_number l = Some (n, rest) -> exists b, Gnum n b /\ l = b ++ rest.
Proof.
  rewrite parse_number_parts. destruct l as [|c r]; [discriminate|].
  destruct (N.eqb_spec c 45) as [->|N45]; intros H; apply int_part_sound in H;
    destruct H as (ip & v & fr & isf & ex & ise & E & Hip & Hfr & Hex & ->).
  - exists (45 :: ip ++ fr ++ ex). split; [|rewrite E; norm_app; reflexivity].
    exists true, ip, v, fr, isf, ex, ise. repeat split; assumption.
  - exists (ip ++ fr ++ ex). split; [|rewrite E; norm_app; reflexivity].
    exists false, ip, v, fr, isf, ex, ise. repeat split; assumption.
Qed.

Definition sound {X} (rd : bytes -> option (X * bytes)) (P : X -> bytes -> Prop) : Prop :=
  forall l x rest, rd l = Some (x, rest) -> exists w b, WS w /\ P x b /\ l = w ++ b ++ rest.
Definition sound_seq {X T} (loop : bytes -> list X -> option (T * bytes)) (P : list X -> bytes -> Prop)
    (fin : list X -> T) : Prop :=
  forall l acc t rest, loop l acc = Some (t, rest) ->
    exists w b l', WS w /\ P l' b /\ l = w ++ b ++ rest /\ t = fin (rev acc ++ l').

Lemma lit_sound w : forall l r, lit w l = Some r -> l = w ++ r.
Proof.
  induction w as [|x w IH]; intros l r H; cbn [lit] in H.
  - injection H as ->. reflexivity.
  - destruct l as [|c l']; [discriminate|]. destruct (N.eqb_spec c x) as [->|]; [|discriminate].
    cbn [app]. f_equal. apply IH. exact H.
Qed.

(* null, true, false: the first byte c has been seen, the other bytes wd are looked for next *)
Lemma lit_token {X} (P : X -> bytes -> Prop) x c wd r t rest : P x (c :: wd) ->
  match lit wd r with Some r' => Some (x, r') | None => None end = Some (t, rest) -> exists b, P t b /\ c :: r = b ++ rest.
Proof.
  intros Hp H. destruct (lit wd r) as [r'|] eqn:El; [|discriminate]. injection H as <- <-.
  apply lit_sound in El. subst r. exists (c :: wd). split; [exact Hp|reflexivity].
Qed.

Lemma sep_step_sound {X T} close (more : bytes -> list X -> option (T * bytes)) fin r acc res :
  sep_step close more fin r acc = Some res ->
  exists w r', WS w /\ ((r = w ++ 44 :: r' /\ more r' acc = Some res) \/ (r = w ++ close :: r' /\ res = (fin (rev acc), r'))).
Proof.
  unfold sep_step. destruct (skip_ws r) as [|c r'] eqn:E; [discriminate|]. destruct (skip_ws_cons _ _ _ E) as (w & Hw & ->).
  intros H. exists w, r'. split; [exact Hw|].
  destruct (N.eqb_spec c 44) as [->|_]; [left; split; [reflexivity|exact H]|].
  destruct (N.eqb_spec c close) as [->|_]; [|discriminate]. injection H as <-. right. split; reflexivity.
Qed.

Section Open.
  Context {X L' : Type} {P : X -> bytes -> Prop} {Ps : L' -> bytes -> Prop} {o close : N} {empty : X} {fin : L' -> X}.
  Hypothesis P_empty : forall w, WS w -> P empty (o :: w ++ [close]).
  Hypothesis P_seq : forall l w b, WS w -> Ps l b -> P (fin l) (o :: w ++ b).

  Lemma open_step_sound loop r x rest :
    (forall l t rest, loop l = Some (t, rest) -> exists w b l', WS w /\ Ps l' b /\ l = w ++ b ++ rest /\ t = fin l') ->
    open_step close empty loop r = Some (x, rest) -> exists b, P x b /\ o :: r = b ++ rest.
  Proof.
    intros Hl. unfold open_step. destruct (skip_ws r) as [|d r'] eqn:E; [discriminate|].
    destruct (skip_ws_cons _ _ _ E) as (w0 & Hw0 & ->). destruct (N.eqb_spec d close) as [->|_]; intros H.
    - injection H as <- <-. exists (o :: w0 ++ [close]). split; [apply P_empty; exact Hw0|norm_app; reflexivity].
    - apply Hl in H. destruct H as (w1 & b & l' & Hw1 & Hp & -> & ->).
      exists (o :: (w0 ++ w1) ++ b). split; [apply P_seq; [apply Forall_app; split; assumption|exact Hp]|norm_app; reflexivity].
  Qed.
End Open.

Section Elems.
  Context {V T : Type} {value : nat -> bytes -> option (V * bytes)}
          {loop more : nat -> bytes -> list V -> option (T * bytes)} {fin : list V -> T}.
  Hypothesis loop_S : forall f l acc, loop (S f) l acc = elems_step (value f) (more f) fin l acc.
  Context {Q : V -> bytes -> Prop} {P P' : list V -> bytes -> Prop}.
  Hypothesis P_last : forall v b w2, Q v b -> WS w2 -> P [v] (b ++ w2 ++ [93]).
  Hypothesis P_cons : forall v b w2 w1 l b', Q v b -> WS w2 -> WS w1 -> P' l b' -> P (v :: l) (b ++ w2 ++ 44 :: w1 ++ b').

  Lemma elems_sound f : sound (value f) Q -> sound_seq (more f) P' fin -> sound_seq (loop (S f)) P fin.
  Proof.
    intros Hv Hm l acc t rest H. rewrite loop_S in H. unfold elems_step in H.
    destruct (value f l) as [[v r]|] eqn:Ev; [|discriminate]. apply Hv in Ev. destruct Ev as (w & b & Hw & Hq & ->).
    apply sep_step_sound in H. destruct H as (w2 & r' & Hw2 & [[-> H] | [-> H]]).
    - apply Hm in H. destruct H as (w1 & b' & l' & Hw1 & Hp & -> & ->).
      exists w, (b ++ w2 ++ 44 :: w1 ++ b'), (v :: l'). split; [exact Hw|]. split; [apply P_cons; assumption|].
      split; [norm_app; reflexivity|]. cbn [rev]. rewrite <- app_assoc. reflexivity.
    - injection H as -> ->. exists w, (b ++ w2 ++ [93]), [v].
      split; [exact Hw|]. split; [apply P_last; assumption|]. split; [norm_app; reflexivity|reflexivity].
  Qed.
End Elems.

Section Members.
  Context {K V M T : Type} {key : nat -> bytes -> option (K * bytes)} {value : nat -> K -> bytes -> option (V * bytes)}
          {mk : K -> V -> M} {loop : nat -> bytes -> list M -> option (T * bytes)} {fin : list M -> T}.
  Hypothesis loop_S : forall f l acc, loop (S f) l acc = members_step (key (S f)) (value f) mk (loop f) fin l acc.
  Context {Pk : K -> bytes -> Prop} {Pv : K -> V -> bytes -> Prop} {P : list M -> bytes -> Prop}.
  Hypothesis P_last : forall k kb w2 w3 v b w4, Pk k kb -> WS w2 -> WS w3 -> Pv k v b -> WS w4 ->
    P [mk k v] (kb ++ w2 ++ 58 :: w3 ++ b ++ w4 ++ [125]).
  Hypothesis P_cons : forall k kb w2 w3 v b w4 w1 l b', Pk k kb -> WS w2 -> WS w3 -> Pv k v b -> WS w4 -> WS w1 -> P l b' ->
    P (mk k v :: l) (kb ++ w2 ++ 58 :: w3 ++ b ++ w4 ++ 44 :: w1 ++ b').

  Lemma members_sound f : sound_key (key (S f)) Pk -> (forall k, sound (value f k) (Pv k)) -> sound_seq (loop f) P fin ->
    sound_seq (loop (S f)) P fin.
  Proof.
    intros Hk Hv Hm l acc t rest H. rewrite loop_S in H. unfold members_step in H.
    destruct (skip_ws l) as [|c r] eqn:E; [discriminate|]. destruct (skip_ws_cons _ _ _ E) as (w & Hw & ->).
    destruct (N.eqb_spec c 34) as [->|_]; [|discriminate].
    destruct (key (S f) r) as [[k r1]|] eqn:Ek; [|discriminate]. apply Hk in Ek. destruct Ek as (kb & Hkb & Ekb).
    destruct (skip_ws r1) as [|d r2] eqn:E1; [discriminate|]. destruct (skip_ws_cons _ _ _ E1) as (w2 & Hw2 & ->).
    destruct (N.eqb_spec d 58) as [->|_]; [|discriminate].
    destruct (value f k r2) as [[v r3]|] eqn:Ev; [|discriminate]. apply Hv in Ev. destruct Ev as (w3 & b & Hw3 & Hb & ->).
    apply sep_step_sound in H. destruct H as (w4 & r' & Hw4 & [[-> H] | [-> H]]).
    - apply Hm in H. destruct H as (w1 & b' & l' & Hw1 & Hp & -> & ->).
      exists w, (kb ++ w2 ++ 58 :: w3 ++ b ++ w4 ++ 44 :: w1 ++ b'), (mk k v :: l').
      split; [exact Hw|]. split; [apply P_cons; assumption|].
      split; [rewrite Ekb; norm_app; reflexivity|]. cbn [rev]. rewrite <- app_assoc. reflexivity.
    - injection H as -> ->. exists w, (kb ++ w2 ++ 58 :: w3 ++ b ++ w4 ++ [125]), [mk k v].
      split; [exact Hw|]. split; [apply P_last; assumption|]. split; [rewrite Ekb; norm_app; reflexivity|reflexivity].
  Qed.
End Members.

(* a value found after white space by its first byte: it is enough to recognise the token that starts there *)
Lemma sound_token {X} (P : X -> bytes -> Prop) w x c r rest : WS w ->
  (exists b, P x b /\ c :: r = b ++ rest) -> exists w' b, WS w' /\ P x b /\ w ++ c :: r = w' ++ b ++ rest.
Proof. intros Hw (b & Hp & ->). exists w, b. repeat split; assumption. Qed.

Lemma end_of_sound {X} (rd : bytes -> option (X * bytes)) P l t : sound rd P -> end_of (rd l) = Some t ->
  exists w b w', WS w /\ P t b /\ WS w' /\ l = w ++ b ++ w'.
Proof.
  intros Hs. unfold end_of. destruct (rd l) as [[t' r]|] eqn:E; [|discriminate].
  destruct (skip_ws r) eqn:Er; [|discriminate]. intros H. injection H as <-.
  apply Hs in E. destruct E as (w & b & Hw & Hp & ->). exists w, b, r. repeat split; try assumption. apply skip_ws_nil, Er.
Qed.

Theorem strict_reader_sound : forall fuel,
  sound (parse_value fuel) G /\ sound_seq (parse_elems fuel) GE JArr /\ sound_seq (parse_members fuel) GM JObj.
Proof.
  induction fuel as [|f (IHv & IHe & IHm)]; [repeat split; repeat intro; discriminate|].
  split; [|split].
  - intros l t rest H. cbn [parse_value] in H.
    destruct (skip_ws l) as [|c r] eqn:E; [discriminate|]. destruct (skip_ws_cons _ _ _ E) as (w & Hw & ->).
    apply (sound_token G); [exact Hw|].
    destruct (N.eqb_spec c 110) as [->|_]; [exact (lit_token G _ _ _ _ _ _ G_null H)|].
    destruct (N.eqb_spec c 116) as [->|_]; [exact (lit_token G _ _ _ _ _ _ G_true H)|].
    destruct (N.eqb_spec c 102) as [->|_]; [exact (lit_token G _ _ _ _ _ _ G_false H)|].
    destruct (N.eqb_spec c 34) as [->|_].
    { destruct (parse_string (S f) r) as [[s r']|] eqn:Es; [|discriminate]. injection H as <- <-.
      destruct (parse_string_sound _ _ _ _ Es) as (b & Hs & Eb). exists b. split; [constructor; exact Hs|exact Eb]. }
    destruct ((c =? 45) || is_digit c).
    { destruct (parse_number (c :: r)) as [[n r']|] eqn:En; [|discriminate]. injection H as <- <-.
      destruct (parse_number_sound _ _ _ En) as (b & Hn & Eb). exists b. split; [constructor; exact Hn|exact Eb]. }
    destruct (N.eqb_spec c 91) as [->|_]; [exact (open_step_sound G_arr0 G_arr _ _ _ _ (fun l => IHe l []) H)|].
    destruct (N.eqb_spec c 123) as [->|_]; [|discriminate].
    exact (open_step_sound G_obj0 G_obj _ _ _ _ (fun l => IHm l []) H).
  - exact (elems_sound parse_elems_S GE_last GE_cons f IHv IHe).
  - exact (members_sound parse_members_S GM_last GM_cons f (parse_string_sound _) (fun _ => IHv) IHm).
Qed.

Theorem parse_json_iff l t :
  parse_json l = Some t <-> exists w b w', WS w /\ G t b /\ WS w' /\ l = w ++ b ++ w'.
Proof.
  split; [exact (end_of_sound _ G l t (proj1 (strict_reader_sound _)))|].
  intros (w & b & w' & Hw & Hg & Hw' & ->). apply parse_json_complete; assumption.
Qed.

Theorem scanner_sound : forall fuel,
  sound (scan_value fuel) (fun _ => L) /\
  sound_seq (scan_elems fuel) (fun _ => LE) (fun _ => tt) /\
  sound_seq (scan_members fuel) (fun _ => LM) (fun _ => tt).
Proof.
  induction fuel as [|f (IHv & IHe & IHm)]; [repeat split; repeat intro; discriminate|].
  split; [|split].
  - intros l u rest H'. assert (H := H'). unfold scan_value in H. cbn [ignore_value] in H.
    destruct (skip_ws l) as [|c r] eqn:E; [discriminate|]. destruct (skip_ws_cons _ _ _ E) as (w & Hw & ->).
    apply (sound_token (fun _ => L) w u); [exact Hw|].
    (* [skipped (lit wd r)] is, by definition, what lit_token expects of a reader that returns tt *)
    destruct (N.eqb_spec c 110) as [->|_]; [exact (lit_token (fun _ => L) tt _ _ _ u _ L_null H)|].
    destruct (N.eqb_spec c 116) as [->|_]; [exact (lit_token (fun _ => L) tt _ _ _ u _ L_true H)|].
    destruct (N.eqb_spec c 102) as [->|_]; [exact (lit_token (fun _ => L) tt _ _ _ u _ L_false H)|].
    destruct (N.eqb_spec c 34) as [->|_].
    { destruct (scan_string_sound (S f) r u rest H) as (b & Hs & Eb). exists b. split; [constructor; exact Hs|exact Eb]. }
    destruct ((c =? 45) || is_digit c).
    { destruct (parse_number (c :: r)) as [[n r']|] eqn:En; [|discriminate]. injection H as <- <-.
      destruct (parse_number_sound _ _ _ En) as (b & Hn & Eb). exists b. split; [econstructor; exact Hn|exact Eb]. }
    destruct (N.eqb_spec c 91) as [->|_].
    { rewrite scan_value_arr in H' by exact Hw.
      exact (open_step_sound (P := fun _ => L) (Ps := fun _ => LE) L_arr0 (fun _ => L_arr) _ _ _ _ (fun l => IHe l []) H'). }
    destruct (N.eqb_spec c 123) as [->|_]; [|discriminate]. rewrite scan_value_obj in H' by exact Hw.
    exact (open_step_sound (P := fun _ => L) (Ps := fun _ => LM) L_obj0 (fun _ => L_obj) _ _ _ _ (fun l => IHm l []) H').
  - exact (elems_sound scan_elems_S (fun _ => LE_last) (fun _ b w2 w1 _ => LE_cons b w2 w1) f IHv IHe).
  - exact (members_sound scan_members_S (fun _ kb w2 w3 _ => LM_last kb w2 w3)
             (fun _ kb w2 w3 _ b w4 w1 _ => LM_cons kb w2 w3 b w4 w1) f (scan_string_sound _) (fun _ => IHv) IHm).
Qed.

Theorem scanner_skips_only_sentences fuel l rest : ignore_value fuel l = Some rest ->
  exists w b, WS w /\ L b /\ l = w ++ b ++ rest.
Proof. intros H. apply (proj1 (scanner_sound fuel) l tt rest), skipped_Some, H. Qed.

Theorem schema_reader_sound : forall fuel,
  (forall sc, sound (parse_sch fuel sc) (GS sc)) /\
  (forall fs, sound_seq (sch_members fuel fs) (GSM fs) JObj) /\
  (forall fs, sound_seq (sch_elems fuel fs) (GSE fs) JArr).
Proof.
  induction fuel as [|f (IHs & IHm & IHe)]; [repeat split; repeat intro; discriminate|].
  split; [|split].
  - intros [|fs] l t rest H; cbn [parse_sch] in H.
    { apply (proj1 (strict_reader_sound _)) in H. destruct H as (w & b & Hw & Hg & ->).
      exists w, b. repeat split; [assumption|constructor; assumption]. }
    destruct (skip_ws l) as [|c r] eqn:E; [discriminate|].
    destruct (N.eqb_spec c 123) as [->|N123]; [|destruct (N.eqb_spec c 91) as [->|N91]].
    + destruct (skip_ws_cons _ _ _ E) as (w & Hw & ->). apply (sound_token (GS (SStruct fs))); [exact Hw|].
      exact (open_step_sound (GS_obj0 fs) (GS_obj fs) _ _ _ _ (fun l => IHm fs l []) H).
    + destruct (skip_ws_cons _ _ _ E) as (w & Hw & ->). apply (sound_token (GS (SStruct fs))); [exact Hw|].
      exact (open_step_sound (GS_arr0 fs) (GS_arr fs) _ _ _ _ (fun l => IHe fs l []) H).
    + (* the strict reader took it: it starts with the byte found, neither '{' nor '[' *)
      apply (proj1 (strict_reader_sound _)) in H. destruct H as (w & b & Hw & Hg & ->).
      rewrite (skip_ws_app w (b ++ rest) Hw (G_starts _ _ rest Hg)) in E.
      exists w, b. repeat split; [exact Hw|]. apply GS_other; [exact Hg| |]; intros r0 ->; cbn [app] in E; congruence.
  - intros fs. refine (members_sound (sch_members_S fs) (GSM_last fs) (GSM_cons fs) f (parse_string_sound _) _ (IHm fs)).
    intros k l v rest Hv. unfold sch_value in Hv. destruct (field_of (str_of k) fs) as [sc'|] eqn:Ef.
    + apply IHs in Hv. destruct Hv as (w & b & Hw & Hg & ->). exists w, b. repeat split; [exact Hw|].
      eapply GSV_known; eassumption.
    + destruct (ignore_value (S f) l) as [r3|] eqn:Ei; [|discriminate]. injection Hv as <- <-.
      apply scanner_skips_only_sentences in Ei. destruct Ei as (w & b & Hw & Hl & ->).
      exists w, b. repeat split; [exact Hw|]. apply GSV_unknown; assumption.
  - intros fs. exact (elems_sound (loop := fun f => sch_elems f fs) (sch_elems_S fs) (GSE_last fs) (GSE_cons fs) f (IHs (hd_schema fs)) (IHe (tl fs))).
Qed.

(* so a body that is not JSON at all, has a defect in a position the struct reads, or has anything after the value
   is rejected *)
Theorem parse_body_iff sc l t :
  parse_body sc l = Some t <-> exists w b w', WS w /\ GS sc t b /\ WS w' /\ l = w ++ b ++ w'.
Proof.
  split; [exact (end_of_sound _ (GS sc) l t (proj1 (schema_reader_sound _) sc))|].
  intros (w & b & w' & Hw & Hg & Hw' & ->). apply parse_body_complete; assumption.
Qed.

(* resp_of_body, pstate_of_body and fstate_of_body_n n are [body_reader] of their schema and their tree reader, by
   definition *)
Definition body_reader {A} (sc : schema) (f : json -> option A) (l : bytes) : option A :=
  match parse_body sc l with Some t => f t | None => None end.

Lemma body_reader_spelled {A} sc (f : json -> option A) t b w w' :
  GS sc t b -> WS w -> WS w' -> body_reader sc f (w ++ b ++ w') = f t.
Proof. intros Hg Hw Hw'. unfold body_reader. rewrite (parse_body_complete sc t b w w' Hg Hw Hw'). reflexivity. Qed.

Lemma body_reader_iff {A} sc (f : json -> option A) l a :
  body_reader sc f l = Some a <->
  exists w b w' t, WS w /\ GS sc t b /\ WS w' /\ l = w ++ b ++ w' /\ f t = Some a.
Proof.
  split.
  - unfold body_reader. destruct (parse_body sc l) as [t|] eqn:E; [|discriminate]. intros H.
    apply parse_body_iff in E. destruct E as (w & b & w' & Hw & Hg & Hw' & ->). exists w, b, w', t. repeat split; assumption.
  - intros (w & b & w' & t & Hw & Hg & Hw' & -> & H). rewrite (body_reader_spelled sc f t b w w' Hg Hw Hw'). exact H.
Qed.
