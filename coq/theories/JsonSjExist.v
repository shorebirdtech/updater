(* The queued events of state.json whose strings are text (JsonTextExist.v). *)
From UV Require Import Base JsonText JsonTextExist JsonSj.

Definition fevent_utf8 (e : fevent) : Prop :=
  utf8_valid (bytes_of (fe_app e)) = true /\ utf8_valid (bytes_of (fe_arch e)) = true /\
  utf8_valid (bytes_of (fe_platform e)) = true /\ utf8_valid (bytes_of (fe_rel e)) = true /\ ostring_utf8 (fe_msg e).
