(* Facts about the reading of a patch-check response body (Json.v). *)
From UV Require Import Base Model Json.
From Coq Require Import ZifyBool.
Arguments String.eqb : simpl never.

Definition json_of_ostring (o : option string) : json :=
  match o with Some s => JStr s | None => JNull end.

Definition json_of_patch (p : patch) : json :=
  JObj [("number"%string, JNum (JInt false (p_num p)));
        ("hash"%string, JStr (p_hash p));
        ("download_url"%string, JStr (p_url p));
        ("hash_signature"%string, json_of_ostring (p_sig p))].

Definition json_of_resp (r : resp) : json :=
  JObj [("patch_available"%string, JBool (r_avail r));
        ("patch"%string, match r_patch r with Some p => json_of_patch p | None => JNull end);
        ("rolled_back_patch_numbers"%string,
         match r_rb r with Some l => JArr (map (fun n => JNum (JInt false n)) l) | None => JNull end)].

Definition resp_in_range (r : resp) : Prop :=
  (forall p, r_patch r = Some p -> p_num p < two64) /\
  (forall l, r_rb r = Some l -> Forall (fun n => n < two64) l).

Lemma all_usize_map l :
  Forall (fun n => n < two64) l -> all_usize (map (fun n => JNum (JInt false n)) l) = Some l.
Proof.
  induction 1 as [|n l Hn Hl IH]; cbn [map all_usize]; [reflexivity|].
  unfold as_usize. assert (E : (n <? two64) = true) by lia. rewrite E, IH. reflexivity.
Qed.

(* an Option field: null for None, the value's own tree (never null) otherwise *)
Lemma as_option_roundtrip {A} (f : json -> option A) (j : A -> json) o :
  (forall a, o = Some a -> f (j a) = Some a /\ j a <> JNull) ->
  as_option f (match o with Some a => j a | None => JNull end) = Some o.
Proof.
  destruct o as [a|]; intros H; [|reflexivity]. destruct (H a eq_refl) as [E Hn].
  unfold as_option. rewrite E. destruct (j a); congruence.
Qed.

Lemma as_patch_roundtrip p : p_num p < two64 -> as_patch (json_of_patch p) = Some p.
Proof.
  destruct p as [n h u s]. cbn [p_num]. intros Hn. assert (E : (n <? two64) = true) by lia.
  destruct s; cbv -[N.ltb two64]; rewrite E; reflexivity.
Qed.

Theorem resp_roundtrip r : resp_in_range r -> resp_of_json (json_of_resp r) = Some r.
Proof.
  intros [Hp Hl]. destruct r as [av pt rb]. cbn [r_patch r_rb] in *.
  cbv -[as_option as_patch json_of_patch as_usize_vec map].
  rewrite (as_option_roundtrip as_patch json_of_patch pt), (as_option_roundtrip as_usize_vec (fun l => JArr (map (fun n => JNum (JInt false n)) l)) rb).
  - reflexivity.
  - intros l E. split; [apply all_usize_map, Hl, E|discriminate].
  - intros p E. split; [apply as_patch_roundtrip, Hp, E|discriminate].
Qed.

Definition resp_step (k : string) (v : json) (a : resp_acc) : option resp_acc :=
  if String.eqb k "patch_available" then
    match ra_avail a, as_bool v with
    | None, Some b => Some {| ra_avail := Some b; ra_patch := ra_patch a; ra_rb := ra_rb a |}
    | _, _ => None
    end
  else if String.eqb k "patch" then
    match ra_patch a, as_option as_patch v with
    | None, Some p => Some {| ra_avail := ra_avail a; ra_patch := Some p; ra_rb := ra_rb a |}
    | _, _ => None
    end
  else if String.eqb k "rolled_back_patch_numbers" then
    match ra_rb a, as_option as_usize_vec v with
    | None, Some x => Some {| ra_avail := ra_avail a; ra_patch := ra_patch a; ra_rb := Some x |}
    | _, _ => None
    end
  else Some a.

Lemma resp_fields_cons k v r a :
  resp_fields ((k, v) :: r) a = match resp_step k v a with Some a' => resp_fields r a' | None => None end.
Proof.
  unfold resp_step. cbn [resp_fields].
  destruct (String.eqb k "patch_available"); [destruct (ra_avail a), (as_bool v); reflexivity|].
  destruct (String.eqb k "patch"); [destruct (ra_patch a), (as_option as_patch v); reflexivity|].
  destruct (String.eqb k "rolled_back_patch_numbers"); [destruct (ra_rb a), (as_option as_usize_vec v); reflexivity|].
  reflexivity.
Qed.

Lemma resp_fields_app l1 l2 : forall a,
  resp_fields (l1 ++ l2) a = match resp_fields l1 a with Some a' => resp_fields l2 a' | None => None end.
Proof.
  induction l1 as [|[k v] l1 IH]; intros a; [reflexivity|]. cbn [app]. rewrite !resp_fields_cons.
  destruct (resp_step k v a); [apply IH|reflexivity].
Qed.

Definition known (k : string) : bool :=
  String.eqb k "patch_available" || String.eqb k "patch" || String.eqb k "rolled_back_patch_numbers".

Lemma step_unknown k v a : known k = false -> resp_step k v a = Some a.
Proof.
  unfold known, resp_step. intros H. apply orb_false_elim in H. destruct H as [H H3].
  apply orb_false_elim in H. destruct H as [H1 H2]. rewrite H1, H2, H3. reflexivity.
Qed.

Theorem unknown_field_ignored l1 k v l2 :
  known k = false ->
  resp_of_json (JObj (l1 ++ (k, v) :: l2)) = resp_of_json (JObj (l1 ++ l2)).
Proof.
  intros H. unfold resp_of_json. rewrite !resp_fields_app. destruct (resp_fields l1 resp_acc0) as [a|]; [|reflexivity].
  rewrite resp_fields_cons, (step_unknown k v a H). reflexivity.
Qed.

Lemma step_avail k v a a' : String.eqb k "patch_available" = false -> resp_step k v a = Some a' -> ra_avail a' = ra_avail a.
Proof.
  unfold resp_step. intros -> H.
  destruct (String.eqb k "patch").
  { destruct (ra_patch a), (as_option as_patch v); try discriminate. injection H as <-. reflexivity. }
  destruct (String.eqb k "rolled_back_patch_numbers").
  { destruct (ra_rb a), (as_option as_usize_vec v); try discriminate. injection H as <-. reflexivity. }
  injection H as <-. reflexivity.
Qed.

Lemma resp_fields_avail_absent l : forall a a',
  (forall v, ~ In ("patch_available"%string, v) l) -> resp_fields l a = Some a' -> ra_avail a' = ra_avail a.
Proof.
  induction l as [|[k v] l IH]; intros a a' Hn H; [injection H as <-; reflexivity|].
  rewrite resp_fields_cons in H. destruct (resp_step k v a) as [a1|] eqn:E; [|discriminate].
  rewrite (IH a1 a'); [apply (step_avail k v); [|exact E]|intros v0 Hin; apply (Hn v0); right; exact Hin|exact H].
  destruct (String.eqb_spec k "patch_available") as [->|]; [exfalso; apply (Hn v); left; reflexivity|reflexivity].
Qed.

Theorem missing_patch_available_rejected l :
  (forall v, ~ In ("patch_available"%string, v) l) -> resp_of_json (JObj l) = None.
Proof.
  intros Hn. unfold resp_of_json. destruct (resp_fields l resp_acc0) as [a'|] eqn:E; [|reflexivity].
  unfold resp_finish. rewrite (resp_fields_avail_absent l _ _ Hn E). reflexivity.
Qed.

Definition seen (k : string) (a : resp_acc) : bool :=
  if String.eqb k "patch_available" then match ra_avail a with Some _ => true | None => false end
  else if String.eqb k "patch" then match ra_patch a with Some _ => true | None => false end
  else if String.eqb k "rolled_back_patch_numbers" then match ra_rb a with Some _ => true | None => false end
  else false.

Lemma step_seen k v a : seen k a = true -> resp_step k v a = None.
Proof.
  unfold seen, resp_step.
  destruct (String.eqb k "patch_available"); [destruct (ra_avail a); [reflexivity|discriminate]|].
  destruct (String.eqb k "patch"); [destruct (ra_patch a); [reflexivity|discriminate]|].
  destruct (String.eqb k "rolled_back_patch_numbers"); [destruct (ra_rb a); [reflexivity|discriminate]|discriminate].
Qed.

Lemma step_sees k v a a' : known k = true -> resp_step k v a = Some a' -> seen k a' = true.
Proof.
  unfold known, seen, resp_step. intros Hk H.
  destruct (String.eqb k "patch_available").
  { destruct (ra_avail a), (as_bool v); try discriminate. injection H as <-. reflexivity. }
  destruct (String.eqb k "patch").
  { destruct (ra_patch a), (as_option as_patch v); try discriminate. injection H as <-. reflexivity. }
  destruct (String.eqb k "rolled_back_patch_numbers"); [|discriminate].
  destruct (ra_rb a), (as_option as_usize_vec v); try discriminate. injection H as <-. reflexivity.
Qed.

(* a step fills one empty slot, or changes nothing *)
Lemma step_mono k1 v1 a a' k : resp_step k1 v1 a = Some a' -> seen k a = true -> seen k a' = true.
Proof.
  unfold resp_step, seen. intros H.
  destruct (String.eqb k1 "patch_available").
  { destruct (ra_avail a), (as_bool v1); try discriminate. injection H as <-. cbn [ra_avail ra_patch ra_rb].
    destruct (String.eqb k "patch_available"); [discriminate|auto]. }
  destruct (String.eqb k1 "patch").
  { destruct (ra_patch a), (as_option as_patch v1); try discriminate. injection H as <-. cbn [ra_avail ra_patch ra_rb].
    destruct (String.eqb k "patch_available"); [auto|]. destruct (String.eqb k "patch"); [discriminate|auto]. }
  destruct (String.eqb k1 "rolled_back_patch_numbers"); [|injection H as <-; auto].
  destruct (ra_rb a), (as_option as_usize_vec v1); try discriminate. injection H as <-. cbn [ra_avail ra_patch ra_rb].
  destruct (String.eqb k "patch_available"); [auto|]. destruct (String.eqb k "patch"); [auto|].
  destruct (String.eqb k "rolled_back_patch_numbers"); [discriminate|auto].
Qed.

Lemma resp_fields_mono l : forall k a a', seen k a = true -> resp_fields l a = Some a' -> seen k a' = true.
Proof.
  induction l as [|[k1 v1] l IH]; intros k a a' Hs H; [injection H as <-; exact Hs|].
  rewrite resp_fields_cons in H. destruct (resp_step k1 v1 a) as [a1|] eqn:E; [|discriminate].
  exact (IH k a1 a' (step_mono k1 v1 a a1 k E Hs) H).
Qed.

Theorem duplicate_field_rejected l1 k v1 l2 v2 l3 :
  known k = true ->
  resp_of_json (JObj (l1 ++ (k, v1) :: l2 ++ (k, v2) :: l3)) = None.
Proof.
  intros Hk. unfold resp_of_json. rewrite resp_fields_app. destruct (resp_fields l1 resp_acc0) as [a|]; [|reflexivity].
  rewrite resp_fields_cons. destruct (resp_step k v1 a) as [a1|] eqn:E1; [|reflexivity].
  rewrite resp_fields_app. destruct (resp_fields l2 a1) as [a2|] eqn:E2; [|reflexivity].
  rewrite resp_fields_cons, (step_seen k v2 a2); [reflexivity|].
  exact (resp_fields_mono l2 k a1 a2 (step_sees k v1 a a1 Hk E1) E2).
Qed.

Theorem usize_exactly j n :
  as_usize j = Some n <-> j = JNum (JInt false n) /\ n < two64.
Proof.
  split.
  - destruct j as [| |[[|] v|]| | |]; cbn; try discriminate.
    destruct (v <? two64) eqn:E; [|discriminate]. intros H; inversion H; subst. split; [reflexivity|lia].
  - intros [-> H]. cbn. assert (E : (n <? two64) = true) by lia. rewrite E. reflexivity.
Qed.

Theorem scalar_rejected j :
  (forall l, j <> JObj l) -> (forall l, j <> JArr l) -> resp_of_json j = None.
Proof. destruct j; intros H1 H2; try reflexivity; [exfalso; eapply H2|exfalso; eapply H1]; reflexivity. Qed.
