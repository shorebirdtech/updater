(* What the PatchManager operations leave alone.  Predicates: I-same (one number, one
   record), "records only move between slots", and "gone". *)
From UV Require Import Base Model PMLemmas Sections.

Section Frame.
Variable sha : bytes -> bytes.
Variable sigok : string -> string -> string -> bool.

Notation validate := (validate sha sigok).
Notation fall_back := (fall_back sha sigok).
Notation next_boot := (next_boot sha sigok).
Notation boot_failure := (boot_failure sha sigok).
Notation rollback_loop := (rollback_loop sha sigok).
Notation sec_pm := (sec_pm sha sigok).

Definition slots (s : pstate) : list (option meta) := [lb s; nb s; cb s].
Definition Isame (s : pstate) : Prop :=
  forall a b, In (Some a) (slots s) -> In (Some b) (slots s) -> m_num a = m_num b -> a = b.

Lemma in_slots s m : In (Some m) (slots s) <-> lb s = Some m \/ nb s = Some m \/ cb s = Some m.
Proof. unfold slots. cbn. tauto. Qed.

Lemma Isame_sub s s' :
  (forall a, In (Some a) (slots s') -> In (Some a) (slots s)) -> Isame s -> Isame s'.
Proof. intros H I a b Ha Hb. apply I; auto. Qed.

Lemma Isame_empty : Isame pempty.
Proof. intros a b [H|[H|[H|[]]]]; discriminate. Qed.

Lemma fall_back_slots key d s b a :
  In (Some a) (slots (snd (fall_back key d s b))) -> In (Some a) (slots s).
Proof.
  rewrite !in_slots, fall_back_lb, fall_back_nb, fall_back_cb.
  assert (Hk : lb_kept sha sigok key d s b = Some a -> lb s = Some a)
    by (intros E; apply lb_kept_some in E; apply E).
  destruct (numeq (nb s) b); [|destruct (nb s)]; tauto.
Qed.

Lemma fall_back_Isame key d s b : Isame s -> Isame (snd (fall_back key d s b)).
Proof. apply Isame_sub. apply fall_back_slots. Qed.

(* a record validates after a fall back from x iff it did and its number is not x: besides x's artifact,
   only that of a last good record which did not validate can go *)
Lemma fall_back_validate key d s x m :
  Isame s -> In (Some m) (slots s) ->
  validate key (fst (fall_back key d s x)) m = if N.eqb (m_num m) x then false else validate key d m.
Proof.
  intros HI Hm. destruct (N.eqb_spec (m_num m) x) as [E|E].
  - apply validate_none. rewrite E. apply fall_back_deletes.
  - destruct (validate key d m) eqn:V.
    + rewrite <- V. apply validate_arts, fall_back_arts_kept; [exact E|].
      intros l El En. rewrite (HI l m); auto. apply in_slots. auto.
    + destruct (fall_back_arts sha sigok key d s x (m_num m)) as [H|H].
      * rewrite <- V. apply validate_arts, H.
      * apply validate_none, H.
Qed.

Lemma unboot_Isame s b : Isame s -> Isame {| lb := lb s; nb := nb s; cb := None; bad := b |}.
Proof. apply Isame_sub. intros a. rewrite !in_slots. cbn. intros [H|[H|H]]; [auto..|discriminate]. Qed.

Lemma boot_failure_Isame key d s n : Isame s -> Isame (snd (boot_failure key d s n)).
Proof. intros H. apply fall_back_Isame, unboot_Isame, H. Qed.

Lemma boot_success_Isame d s : Isame s -> Isame (snd (boot_success d s)).
Proof.
  unfold boot_success. destruct (cb s) as [b|] eqn:E; cbn; auto.
  apply Isame_sub. unfold slots. cbn. rewrite E. intuition congruence.
Qed.

Lemma start_Isame s : Isame s -> Isame {| lb := lb s; nb := nb s; cb := nb s; bad := bad s |}.
Proof. apply Isame_sub. unfold slots. cbn. intuition congruence. Qed.

(* an install keeps I-same if the new record agrees with any record of the same number that stays *)
Definition consistent (s : pstate) (new : meta) : Prop :=
  forall a, lb s = Some a \/ cb s = Some a -> m_num a = m_num new -> a = new.

Lemma add_patch_Isame d s n b h sg :
  consistent s {| m_num := n; m_size := blen b; m_hash := h; m_sig := sg |} ->
  Isame s -> Isame (snd (add_patch d s n b h sg)).
Proof.
  clear sha sigok. intros C I. unfold add_patch. cbn [snd].
  set (new := {| m_num := n; m_size := blen b; m_hash := h; m_sig := sg |}) in C |- *.
  intros x y Hx Hy E. apply in_slots in Hx, Hy. cbn [lb nb cb] in Hx, Hy.
  assert (Hin : forall z, lb s = Some z \/ cb s = Some z -> In (Some z) (slots s))
    by (intros z Hz; apply in_slots; tauto).
  destruct Hx as [Hx|[Hx|Hx]]; destruct Hy as [Hy|[Hy|Hy]];
    try (injection Hx as <-); try (injection Hy as <-); auto;
    try (apply I; auto; fail);
    try (apply C; auto; fail);
    try (symmetry; apply C; auto; fail).
Qed.

Lemma sec_pm_slots key k d s a :
  In (Some a) (slots (snd (sec_pm key k d s))) ->
  In (Some a) (slots s) \/
  exists p out, k = SInstall p out /\ inb (p_num p) (bad s) = false /\
    a = {| m_num := p_num p; m_size := blen out; m_hash := p_hash p; m_sig := p_sig p |}.
Proof.
  assert (Hn : In (Some a) (slots (snd (fst (next_boot key d s)))) -> In (Some a) (slots s)).
  { apply (next_boot_pres sha sigok (fun x => In (Some a) (slots (snd x)) -> In (Some a) (slots s))); [|auto].
    intros m _ _. apply fall_back_slots. }
  destruct k; cbn [Sections.sec_pm]; auto.
  - (* SStart *) destruct (next_boot key d s) as [[d1 s1] [n|]]; [|auto]. cbn [fst snd] in *.
    rewrite in_slots. cbn [lb nb cb]. intros H. left. apply Hn, in_slots. tauto.
  - (* SSuccess *) unfold boot_success. destruct (cb s) as [b|] eqn:E; [|auto]. cbn [snd]. rewrite !in_slots. cbn [lb nb cb].
    rewrite E. intros [H|[H|H]]; [| |discriminate]; auto.
  - (* SFail *) destruct (cb s); [|auto]. intros H. apply fall_back_slots in H. left. revert H.
    rewrite !in_slots. cbn [lb nb cb]. intros [H|[H|H]]; [| |discriminate]; auto.
  - (* SRollback *) intros H. left. revert H.
    apply (rollback_loop_pres sha sigok (fun x => In (Some a) (slots (snd x)) -> In (Some a) (slots s))); [|auto].
    intros d1 s1 x _ IH H. apply IH. eapply fall_back_slots, H.
  - (* SInstall *) destruct (inb (p_num p) (bad s)) eqn:Eb; [auto|]. cbn [add_patch snd]. rewrite !in_slots. cbn [lb nb cb].
    intros [H|[H|H]]; [| |]; auto. injection H as <-. right. eauto.
Qed.

Definition gone (d : disk) (s : pstate) (x : N) : Prop :=
  arts d x = None /\ numeq (nb s) x = false.

Lemma fall_back_gone key d s b x :
  gone d s x -> gone (fst (fall_back key d s b)) (snd (fall_back key d s b)) x.
Proof.
  intros [Ha Hn]. split.
  - destruct (fall_back_arts sha sigok key d s b x) as [H|H]; congruence.
  - (* a last good patch that is re-selected validates, so it is not x *)
    assert (Hl : numeq (lb_kept sha sigok key d s b) x = false).
    { destruct (lb_kept sha sigok key d s b) as [l|] eqn:E; [|reflexivity].
      apply lb_kept_some in E. destruct E as (_ & _ & V). apply numeq_false_some. intros <-.
      rewrite validate_del, (validate_none sha sigok key d l Ha) in V. destruct (N.eqb (m_num l) b); discriminate. }
    rewrite fall_back_nb. destruct (numeq (nb s) b); [exact Hl|]. destruct (nb s); [exact Hn|exact Hl].
Qed.

Lemma fall_back_makes_gone key d s b : gone (fst (fall_back key d s b)) (snd (fall_back key d s b)) b.
Proof. split; [apply fall_back_deletes|apply fall_back_nb_neq]. Qed.

Lemma rollback_loop_makes_gone key l x : forall d s,
  In x l -> gone (fst (rollback_loop key d s l)) (snd (rollback_loop key d s l)) x.
Proof.
  induction l as [|y l IH]; intros d s Hin; cbn; [destruct Hin|].
  pose proof (fall_back_makes_gone key d s y) as H.
  destruct (fall_back key d s y) as [d1 s1] eqn:E. cbn in *.
  destruct Hin as [->|Hin]; [|apply IH; exact Hin].
  apply (rollback_loop_pres sha sigok (fun z => gone (fst z) (snd z) x)); [|exact H].
  intros d2 s2 z _. apply fall_back_gone.
Qed.

Lemma sec_pm_gone key k d s x :
  gone d s x -> (forall p out, k = SInstall p out -> inb (p_num p) (bad s) = false -> x <> p_num p) ->
  gone (fst (sec_pm key k d s)) (snd (sec_pm key k d s)) x.
Proof.
  intros G Hk.
  assert (Hn : gone (fst (fst (next_boot key d s))) (snd (fst (next_boot key d s))) x)
    by (apply (next_boot_pres sha sigok (fun z => gone (fst z) (snd z) x)); [intros; apply fall_back_gone|]; exact G).
  destruct k; cbn [Sections.sec_pm]; auto.
  - (* SStart *) destruct (next_boot key d s) as [[d1 s1] [n|]]; exact Hn.
  - (* SSuccess *) destruct G as [Ha Hx]. unfold boot_success. destruct (cb s); [|split; auto]. split; [|exact Hx].
    unfold sweep. cbn. rewrite Ha. destruct (_ && _); reflexivity.
  - (* SFail *) destruct (cb s); [apply fall_back_gone|]; exact G.
  - (* SRollback *) apply (rollback_loop_pres sha sigok (fun z => gone (fst z) (snd z) x)); [|exact G].
    intros d2 s2 z _. apply fall_back_gone.
  - (* SInstall *) destruct (inb (p_num p) (bad s)) eqn:Eb; [exact G|]. specialize (Hk p out eq_refl Eb).
    destruct G as [Ha Hx]. split; [|apply N.eqb_neq; auto]. cbn [add_patch fst].
    assert (Hp : arts (put_art d (p_num p) out) x = None) by (cbn; rewrite upd_art_other; auto).
    destruct (nb s); [destruct (lb s)|]; try exact Hp. destruct (_ && _); [|exact Hp].
    cbn. unfold upd_art at 1. destruct (N.eqb x _); [reflexivity|exact Hp].
Qed.

End Frame.
