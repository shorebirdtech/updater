(* Facts about the reading of patches_state.json. *)
From UV Require Import Base Model Json JsonProofs JsonTextProofs JsonTextSound JsonState.
From Coq Require Import ZifyN ZifyBool Lia.
Local Open Scope N_scope.

Theorem pstate_of_body_iff l s :
  pstate_of_body l = Some s <->
  exists w b w' t, WS w /\ GS pstate_schema t b /\ WS w' /\ l = w ++ b ++ w' /\ pstate_of_json t = Some s.
Proof. exact (body_reader_iff pstate_schema pstate_of_json l s). Qed.

Definition json_of_meta (m : meta) : json :=
  JObj [("number"%string, JNum (JInt false (m_num m)));
        ("size"%string, JNum (JInt false (m_size m)));
        ("hash"%string, JStr (m_hash m));
        ("signature"%string, json_of_ostring (m_sig m))].
Definition json_of_ometa (o : option meta) : json := match o with Some m => json_of_meta m | None => JNull end.
Definition json_of_pstate (s : pstate) : json :=
  JObj [("last_booted_patch"%string, json_of_ometa (lb s));
        ("next_boot_patch"%string, json_of_ometa (nb s));
        ("currently_booting_patch"%string, json_of_ometa (cb s));
        ("known_bad_patches"%string, JArr (map (fun n => JNum (JInt false n)) (bad s)))].

Definition meta_in_range (m : meta) : Prop := m_num m < two64 /\ m_size m < two64.
Definition ometa_in_range (o : option meta) : Prop := match o with Some m => meta_in_range m | None => True end.
Definition pstate_in_range (s : pstate) : Prop :=
  ometa_in_range (lb s) /\ ometa_in_range (nb s) /\ ometa_in_range (cb s) /\
  Forall (fun n => n < two64) (bad s) /\ NoDup (bad s).

Lemma as_meta_roundtrip m : meta_in_range m -> as_meta (json_of_meta m) = Some m.
Proof.
  intros [H1 H2]. destruct m as [n z h sg]. cbn [m_num m_size] in *.
  assert (E1 : (n <? two64) = true) by lia. assert (E2 : (z <? two64) = true) by lia.
  destruct sg; cbv -[N.ltb two64]; rewrite E1, E2; reflexivity.
Qed.

Lemma as_ometa_roundtrip o : ometa_in_range o -> as_option as_meta (json_of_ometa o) = Some o.
Proof.
  intros H. apply (as_option_roundtrip as_meta json_of_meta). intros m ->.
  split; [apply as_meta_roundtrip; exact H|discriminate].
Qed.

Lemma dedup_nodup l : NoDup l -> dedup l = l.
Proof.
  induction 1 as [|x l Hx _ IH]; [reflexivity|]. cbn [dedup].
  destruct (inb x l) eqn:E.
  - exfalso. apply Hx. unfold inb in E. apply existsb_exists in E. destruct E as (y & Hy & Ey).
    apply N.eqb_eq in Ey. subst y. exact Hy.
  - rewrite IH. reflexivity.
Qed.

Lemma as_usize_set_roundtrip b : Forall (fun n => n < two64) b -> NoDup b ->
  as_usize_set (JArr (map (fun n => JNum (JInt false n)) b)) = Some b.
Proof. intros H4 H5. unfold as_usize_set, as_usize_vec. rewrite (all_usize_map b H4), (dedup_nodup b H5). reflexivity. Qed.

Theorem pstate_roundtrip s : pstate_in_range s -> pstate_of_json (json_of_pstate s) = Some s.
Proof.
  intros (H1 & H2 & H3 & H4 & H5). destruct s as [l n c b]. cbn [lb nb cb bad] in *.
  cbv -[as_option as_meta json_of_ometa as_usize_set map].
  rewrite (as_ometa_roundtrip l H1), (as_ometa_roundtrip n H2), (as_ometa_roundtrip c H3), (as_usize_set_roundtrip b H4 H5).
  reflexivity.
Qed.

Theorem spelled_pstate_is_read s b w w' :
  pstate_in_range s -> GS pstate_schema (json_of_pstate s) b -> WS w -> WS w' -> pstate_of_body (w ++ b ++ w') = Some s.
Proof.
  intros Hr Hg Hw Hw'. rewrite <- (pstate_roundtrip s Hr).
  exact (body_reader_spelled pstate_schema pstate_of_json _ b w w' Hg Hw Hw').
Qed.

(* a file that lacks the ban list, names a field twice, or gives a number where a record is expected is unreadable; a
   number listed twice in the ban list is kept once, and an unknown member is passed over *)
Example pstate_rejects :
  pstate_of_json (JObj [("last_booted_patch"%string, JNull)]) = None /\
  pstate_of_json (JObj [("known_bad_patches"%string, JArr []); ("known_bad_patches"%string, JArr [])]) = None /\
  pstate_of_json (JObj [("known_bad_patches"%string, JArr []); ("next_boot_patch"%string, JNum (JInt false 2))]) = None /\
  pstate_of_json (JObj [("known_bad_patches"%string, JArr [JNum (JInt false 3); JNum (JInt false 3)])]) = Some {| lb := None; nb := None; cb := None; bad := [3] |} /\
  pstate_of_json (JObj [("zzz"%string, JBool true); ("known_bad_patches"%string, JArr [])]) = Some pempty.
Proof. vm_compute. repeat split. Qed.
