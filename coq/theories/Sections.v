(* Every call of the model is a sequence of critical sections (one `with_state` /
   `with_mut_state` closure of updater.rs each).  A predicate on disks that every critical section
   keeps is therefore kept by every call: [secs_inv], [step_inv] (Blocks.v says the same of every
   schedule of threads).  The case analysis of an update is made once, in [do_update_answer]. *)
From UV Require Import Base Model PMLemmas.

Section Sections.
Variable sha : bytes -> bytes.
Variable sigok : string -> string -> string -> bool.
Variable zdec : bytes -> bytes.
Variable base : bytes.

Notation next_boot := (next_boot sha sigok).
Notation boot_failure := (boot_failure sha sigok).
Notation rollback_loop := (rollback_loop sha sigok).
Notation cs_next := (cs_next sha sigok).
Notation cs_start := (cs_start sha sigok).
Notation cs_failure := (cs_failure sha sigok).
Notation cs_init_recover := (cs_init_recover sha sigok).
Notation cs_rollback := (cs_rollback sha sigok).
Notation should_install := (should_install sha sigok).
Notation do_check := (do_check sha sigok).
Notation do_update := (do_update sha sigok zdec base).
Notation step := (step sha sigok zdec base).
Notation inflate := (inflate zdec base).
Notation hash_ok := (hash_ok sha).

(* SRead stands for the three sections that only load the state (current patch, ban query, copy of
   the event queue): on disk they are the release check of load_or_new_on_error and nothing else. *)
Inductive section :=
| SRead | SNext | SStart | SSuccess
| SFail (m : evmsg)            (* report_launch_failure (MsgEngine) and crash detection at init (MsgInit) *)
| SRollback (l : list N) | SClear | SInstall (p : patch) (out : bytes).

Definition fail_disk (c : cfg) (m : evmsg) (d : disk) : disk :=
  let d := norm c d in
  match cb (load_p d) with
  | None => d
  | Some b => queue_event c (fst (boot_failure (c_key c) d (load_p d) (m_num b)))
                          (mk_event c EvInstallFailure (m_num b) m)
  end.

Definition sec_disk (c : cfg) (k : section) (d : disk) : disk :=
  match k with
  | SRead => norm c d
  | SNext => fst (cs_next c d)
  | SStart => cs_start c d
  | SSuccess => fst (cs_success c d)
  | SFail m => fail_disk c m d
  | SRollback l => cs_rollback c d l
  | SClear => cs_clear_events c d
  | SInstall p out => fst (cs_install c d p out)
  end.

Lemma cs_failure_disk c d : fst (cs_failure c d) = fail_disk c MsgEngine d.
Proof.
  unfold Model.cs_failure, fail_disk. destruct (cb (load_p (norm c d))); [|reflexivity].
  destruct (boot_failure _ _ _ _). reflexivity.
Qed.

Lemma cs_init_recover_disk c d : cs_init_recover c d = fail_disk c MsgInit d.
Proof.
  unfold Model.cs_init_recover, fail_disk. destruct (cb (load_p (norm c d))); [|reflexivity].
  destruct (boot_failure _ _ _ _). reflexivity.
Qed.

(* A section is: the release check; one PatchManager operation; at most a write to state.json.
   This is the PatchManager operation, on the state [s] it has loaded from [d]. *)
Definition sec_pm (key : option string) (k : section) (d : disk) (s : pstate) : disk * pstate :=
  match k with
  | SRead | SClear => (d, s)
  | SNext => fst (next_boot key d s)
  | SStart => let '(d1, s1, r) := next_boot key d s in
              match r with
              | Some _ => let s2 := {| lb := lb s1; nb := nb s1; cb := nb s1; bad := bad s1 |} in
                          (save_p d1 s2, s2)
              | None => (d1, s1)
              end
  | SSuccess => boot_success d s
  | SFail _ => match cb s with Some b => boot_failure key d s (m_num b) | None => (d, s) end
  | SRollback l => rollback_loop key d s l
  | SInstall p out => if inb (p_num p) (bad s) then (d, s)
                      else add_patch d s (p_num p) out (p_hash p) (p_sig p)
  end.

Lemma sec_pm_load key k d :
  load_p (fst (sec_pm key k d (load_p d))) = snd (sec_pm key k d (load_p d)).
Proof.
  assert (Hn : load_p (fst (fst (next_boot key d (load_p d)))) = snd (fst (next_boot key d (load_p d)))).
  { apply (next_boot_pres sha sigok (fun x => load_p (fst x) = snd x)); [|reflexivity].
    intros m _ _. apply load_of_pj, fall_back_saved. }
  destruct k; cbn [sec_pm]; try reflexivity.
  - (* SNext *) exact Hn.
  - (* SStart *) destruct (next_boot key d (load_p d)) as [[d1 s1] [n|]]; [reflexivity|exact Hn].
  - (* SSuccess *) unfold boot_success. destruct (cb (load_p d)); reflexivity.
  - (* SFail *) destruct (cb (load_p d)); [|reflexivity]. apply load_of_pj, fall_back_saved.
  - (* SRollback *) destruct l as [|x l]; [reflexivity|]. cbn [Model.rollback_loop].
    pose proof (fall_back_saved sha sigok key d (load_p d) x) as H.
    destruct (Model.fall_back sha sigok key d (load_p d) x) as [d1 s1].
    apply load_of_pj, (rollback_loop_pres sha sigok (fun x => pj (fst x) = JOk (snd x))); [|exact H].
    intros d2 s2 y _ _. apply fall_back_saved.
  - (* SInstall *) destruct (inb (p_num p) (bad (load_p d))); reflexivity.
Qed.

Lemma sec_pm_sj key k d s : sj (fst (sec_pm key k d s)) = sj d.
Proof.
  assert (Hn : sj (fst (fst (next_boot key d s))) = sj d).
  { apply (next_boot_pres sha sigok (fun x => sj (fst x) = sj d)); [|reflexivity].
    intros m _ _. apply fall_back_sj. }
  destruct k; cbn [sec_pm]; try reflexivity.
  - (* SNext *) exact Hn.
  - (* SStart *) destruct (next_boot key d s) as [[d1 s1] [n|]]; exact Hn.
  - (* SSuccess *) unfold boot_success. destruct (cb s); reflexivity.
  - (* SFail *) destruct (cb s); [apply fall_back_sj|reflexivity].
  - (* SRollback *) apply (rollback_loop_pres sha sigok (fun x => sj (fst x) = sj d)); [|reflexivity].
    intros d2 s2 y _ E. rewrite fall_back_sj. exact E.
  - (* SInstall *) destruct (inb (p_num p) (bad s)); [reflexivity|]. unfold add_patch. cbn.
    destruct (nb s); [destruct (lb s)|]; try reflexivity.
    match goal with |- context [if ?b then _ else _] => destruct b end; reflexivity.
Qed.

Lemma cs_next_loaded c d :
  next_boot (c_key c) (norm c d) (load_p (norm c d)) =
  (fst (cs_next c d), load_p (fst (cs_next c d)), snd (cs_next c d)).
Proof.
  pose proof (sec_pm_load (c_key c) SNext (norm c d)) as H. unfold Model.cs_next. cbn [sec_pm] in H.
  destruct (next_boot _ _ _) as [[d1 s1] r]. cbn [fst snd] in *. rewrite H. reflexivity.
Qed.

Definition keeps_cb (k : section) : Prop :=
  match k with SStart | SSuccess | SFail _ => False | _ => True end.

Lemma sec_pm_cb key k d s : keeps_cb k -> cb (snd (sec_pm key k d s)) = cb s.
Proof.
  destruct k; cbn [sec_pm keeps_cb]; try contradiction; intros _; try reflexivity.
  - (* SNext *) apply (next_boot_pres sha sigok (fun x => cb (snd x) = cb s)); [|reflexivity]. intros. apply fall_back_cb.
  - (* SRollback *) apply (rollback_loop_pres sha sigok (fun x => cb (snd x) = cb s)); [|reflexivity].
    intros d1 s1 x _ E. rewrite fall_back_cb. exact E.
  - (* SInstall *) destruct (inb (p_num p) (bad s)); reflexivity.
Qed.

(* what a section then does to state.json, given the booting record [b] it had found *)
Definition sec_sj (c : cfg) (k : section) (b : option meta) (x : disk) : disk :=
  match k, b with
  | SFail m, Some b => queue_event c x (mk_event c EvInstallFailure (m_num b) m)
  | SClear, _ => set_sj x (JOk {| rel := rel (load_s c x); evq := [] |})
  | _, _ => x
  end.

Lemma sec_disk_split c k d :
  sec_disk c k d = sec_sj c k (cb (load_p (norm c d)))
                     (fst (sec_pm (c_key c) k (norm c d) (load_p (norm c d)))).
Proof.
  destruct k; cbn [sec_disk sec_pm sec_sj fst]; try reflexivity.
  - (* SNext *) unfold Model.cs_next. destruct (next_boot _ _ _) as [[d1 s1] r]. reflexivity.
  - (* SStart *) unfold Model.cs_start. destruct (next_boot _ _ _) as [[d1 s1] [n|]]; reflexivity.
  - (* SSuccess *) unfold Model.cs_success, boot_success. destruct (cb _); reflexivity.
  - (* SFail *) unfold fail_disk. destruct (cb _); reflexivity.
  - (* SInstall *) unfold Model.cs_install. destruct (inb _ _); reflexivity.
Qed.

Lemma sec_disk_sj c k d :
  match k with SFail _ | SClear => True | _ => sj (sec_disk c k d) = sj (norm c d) end.
Proof. destruct k; auto; rewrite sec_disk_split; apply sec_pm_sj. Qed.

Lemma sec_sj_set c k b x : exists v, sec_sj c k b x = set_sj x v.
Proof.
  assert (Hid : x = set_sj x (sj x)) by (destruct x; reflexivity).
  destruct k; try (exists (sj x); exact Hid). 2: eexists; reflexivity.
  destruct b; [eexists; reflexivity|exists (sj x); exact Hid].
Qed.

Theorem sec_lift (Q : disk -> pstate -> Prop) c k d :
  (forall x s v, Q x s -> Q (set_sj x v) s) ->
  Q (fst (sec_pm (c_key c) k (norm c d) (load_p (norm c d))))
    (snd (sec_pm (c_key c) k (norm c d) (load_p (norm c d)))) ->
  Q (sec_disk c k d) (load_p (sec_disk c k d)).
Proof.
  intros Hsj H. rewrite sec_disk_split.
  destruct (sec_sj_set c k (cb (load_p (norm c d))) (fst (sec_pm (c_key c) k (norm c d) (load_p (norm c d))))) as [v ->].
  rewrite load_set_sj, sec_pm_load. apply Hsj, H.
Qed.

(* reachability by sections that are admissible where they start *)
Inductive secs (c : cfg) (A : section -> disk -> Prop) : disk -> disk -> Prop :=
| secs_nil d : secs c A d d
| secs_cons k d d' : A k d -> secs c A (sec_disk c k d) d' -> secs c A d d'.

Lemma secs_one c (A : section -> disk -> Prop) k d : A k d -> secs c A d (sec_disk c k d).
Proof. intros H. eapply secs_cons; [exact H|apply secs_nil]. Qed.

Lemma secs_app c A d1 d2 d3 : secs c A d1 d2 -> secs c A d2 d3 -> secs c A d1 d3.
Proof. induction 1; [auto|]. intros H3. eapply secs_cons; eauto. Qed.

Lemma secs_mono c (A B : section -> disk -> Prop) d d' :
  (forall k x, A k x -> B k x) -> secs c A d d' -> secs c B d d'.
Proof. intros HAB. induction 1; [apply secs_nil|]. eapply secs_cons; eauto. Qed.

Theorem secs_inv c (A : section -> disk -> Prop) (P : disk -> Prop) :
  (forall k d, A k d -> P d -> P (sec_disk c k d)) ->
  forall d d', secs c A d d' -> P d -> P d'.
Proof. intros Hk. induction 1; auto. Qed.

Definition query_sec (k : section) (_ : disk) : Prop := k = SRead \/ k = SNext.

Lemma should_install_secs c d n : secs c query_sec d (fst (should_install c d n)).
Proof.
  unfold Model.should_install, cs_is_bad.
  destruct (inb n (bad (load_p (norm c d)))); [apply (secs_one c query_sec SRead); left; reflexivity|].
  apply secs_cons with (k := SRead); [left; reflexivity|]. cbn [sec_disk].
  replace (fst (let '(d2, r) := cs_next c (norm c d) in
                match r with
                | Some k => if N.eqb k n then (d2, ShAlready) else (d2, ShOk)
                | None => (d2, ShOk)
                end)) with (sec_disk c SNext (norm c d)).
  - apply secs_one. right. reflexivity.
  - cbn [sec_disk]. destruct (cs_next c (norm c d)) as [d2 [k|]]; [destruct (N.eqb k n)|]; reflexivity.
Qed.

Definition listed (r : option resp) (l : list N) : Prop := exists rs, r = Some rs /\ r_rb rs = Some l.

Definition check_sec (r : option resp) (k : section) (d : disk) : Prop :=
  match k with
  | SRollback l => listed r l
  | _ => query_sec k d
  end.

Lemma rollback_secs c d rs :
  secs c (check_sec (Some rs)) d (match r_rb rs with Some l => cs_rollback c d l | None => d end).
Proof.
  destruct (r_rb rs) as [l|] eqn:El; [|apply secs_nil].
  apply (secs_one c _ (SRollback l)). exists rs. auto.
Qed.

Lemma do_check_secs c d ch r : secs c (check_sec r) d (fst (fst (do_check c d ch r))).
Proof.
  unfold Model.do_check. destruct r as [rs|]; [|apply secs_nil].
  pose proof (rollback_secs c d rs) as H1.
  destruct (r_patch rs) as [p|]; [|exact H1].
  eapply secs_app; [exact H1|].
  match goal with |- context [should_install c ?x ?n] =>
    pose proof (should_install_secs c x n) as H2; destruct (should_install c x n) end.
  eapply secs_mono; [|exact H2]. intros k x [-> | ->]; [left|right]; reflexivity.
Qed.

Definition gate (dl : option bytes) (h : string) : option bytes :=
  match dl with
  | Some bdl => match inflate bdl with
                | Some out => if hash_ok out h then Some out else None
                | None => None
                end
  | None => None
  end.

Lemma gate_some dl h out :
  gate dl h = Some out <->
  exists bdl, dl = Some bdl /\ inflate bdl = Some out /\ hash_ok out h = true.
Proof.
  unfold gate. split.
  - destruct dl as [bdl|]; [|discriminate]. destruct (inflate bdl) as [o|] eqn:Ei; [|discriminate].
    destruct (hash_ok o h) eqn:Eh; [|discriminate]. intros E. injection E as <-. eauto.
  - intros (bdl & -> & -> & ->). reflexivity.
Qed.

Definition cleared (c : cfg) (d : disk) : disk := cs_clear_events c (norm c d).
Definition rolled (c : cfg) (d : disk) (rs : resp) : disk :=
  match r_rb rs with Some l => cs_rollback c (cleared c d) l | None => cleared c d end.
Definition sent (c : cfg) (d : disk) (ch : option string) : list netobs :=
  map NEvent (firstn 3 (evq (load_s c (norm c d)))) ++ [NCheck (mk_request c ch)].

Variant answer_view (c : cfg) (d : disk) (ch : option string) (rs : resp) (dl : option bytes)
  : disk * ustatus * list netobs -> Prop :=
| AvNoUpdate : r_avail rs = false ->
    answer_view c d ch rs dl (rolled c d rs, UNoUpdate, sent c d ch)
| AvNoPatch : r_avail rs = true -> r_patch rs = None ->
    answer_view c d ch rs dl (rolled c d rs, UError, sent c d ch)
| AvRefused p sh : r_avail rs = true -> r_patch rs = Some p ->
    snd (should_install c (rolled c d rs) (p_num p)) = sh -> sh <> ShOk ->
    answer_view c d ch rs dl (fst (should_install c (rolled c d rs) (p_num p)),
                              match sh with ShBad => UBadPatch | _ => UNoUpdate end, sent c d ch)
| AvRejected p : r_avail rs = true -> r_patch rs = Some p ->
    snd (should_install c (rolled c d rs) (p_num p)) = ShOk -> gate dl (p_hash p) = None ->
    answer_view c d ch rs dl (fst (should_install c (rolled c d rs) (p_num p)), UError,
                              sent c d ch ++ [NDownload (p_url p)])
| AvInstall p out : r_avail rs = true -> r_patch rs = Some p ->
    snd (should_install c (rolled c d rs) (p_num p)) = ShOk -> gate dl (p_hash p) = Some out ->
    let d3 := fst (should_install c (rolled c d rs) (p_num p)) in
    answer_view c d ch rs dl
      (fst (cs_install c d3 p out), snd (cs_install c d3 p out),
       match snd (cs_install c d3 p out) with
       | UInstalled => (sent c d ch ++ [NDownload (p_url p)]) ++ [NEvent (mk_event c EvDownload (p_num p) MsgNone)]
       | _ => sent c d ch ++ [NDownload (p_url p)]
       end).

Lemma do_update_answer c d ch rs dl : answer_view c d ch rs dl (do_update c d ch (Some rs) dl).
Proof.
  unfold Model.do_update. cbn [cs_copy_events]. fold (cleared c d) (sent c d ch) (rolled c d rs).
  destruct (r_avail rs) eqn:Ea; cbn [negb]; [|apply AvNoUpdate; auto].
  destruct (r_patch rs) as [p|] eqn:Ep; [|apply AvNoPatch; auto].
  (* the three constructors that mention should_install are instantiated first, so that the destruct
     of should_install below rewrites inside them as well *)
  pose proof (AvRefused c d ch rs dl p) as HR.
  pose proof (AvRejected c d ch rs dl p Ea Ep) as HJ.
  pose proof (AvInstall c d ch rs dl p) as HI.
  destruct (should_install c (rolled c d rs) (p_num p)) as [d3 sh]. cbn [fst snd] in *.
  destruct sh; try (apply (HR _ Ea Ep eq_refl); discriminate).
  specialize (HJ eq_refl). unfold gate in HJ, HI.
  destruct dl as [bdl|]; [|apply HJ; reflexivity].
  destruct (inflate bdl) as [out|]; [|apply HJ; reflexivity].
  destruct (hash_ok out (p_hash p)); [|apply HJ; reflexivity].
  specialize (HI out Ea Ep eq_refl eq_refl). cbv zeta in HI.
  destruct (cs_install c d3 p out) as [d4 st]. exact HI.
Qed.

(* an offer that the queries refuse ends the update there: every other outcome needs another answer
   or another query result *)
Lemma update_refused c d ch rs p dl d' sh :
  r_avail rs = true -> r_patch rs = Some p ->
  should_install c (rolled c d rs) (p_num p) = (d', sh) -> sh <> ShOk ->
  do_update c d ch (Some rs) dl =
  (d', match sh with ShBad => UBadPatch | _ => UNoUpdate end, sent c d ch).
Proof.
  intros Ha Hp Hsh Hs.
  destruct (do_update_answer c d ch rs dl) as [Ea|Ea Ep|q sh' Ea Ep Es _|q Ea Ep Es Eg|q out Ea Ep Es Eg];
    try congruence; assert (q = p) by congruence; subst q; rewrite Hsh in *; cbn [fst snd] in *; try congruence.
  subst sh'. reflexivity.
Qed.

(* [st]: the status of the whole update, which is that of its install section *)
Definition update_sec (c : cfg) (r : option resp) (dl : option bytes) (st : ustatus)
           (k : section) (d : disk) : Prop :=
  match k with
  | SClear => True
  | SRollback l => listed r l
  | SInstall p out => (exists rs, r = Some rs /\ r_avail rs = true /\ r_patch rs = Some p) /\
                      gate dl (p_hash p) = Some out /\ snd (cs_install c d p out) = st
  | _ => query_sec k d
  end.

Lemma update_split c d ch r dl :
  let res := fst (do_update c d ch r dl) in
  exists d3, secs c (check_sec r) (cleared c d) d3 /\
    ((fst res = d3 /\ snd res <> UInstalled) \/
     exists p out, update_sec c r dl (snd res) (SInstall p out) d3 /\ fst res = fst (cs_install c d3 p out)).
Proof.
  cbv zeta. destruct r as [rs|]; [|exists (cleared c d); split; [apply secs_nil|left; split; [reflexivity|discriminate]]].
  pose proof (rollback_secs c (cleared c d) rs : secs c _ _ (rolled c d rs)) as H2.
  assert (H3 : forall n, secs c (check_sec (Some rs)) (cleared c d) (fst (should_install c (rolled c d rs) n))).
  { intros n. eapply secs_app; [exact H2|].
    eapply secs_mono; [|apply should_install_secs]. intros k x [-> | ->]; [left|right]; reflexivity. }
  destruct (do_update_answer c d ch rs dl) as [Ea|Ea Ep|p sh Ea Ep Es Hsh|p Ea Ep Es Eg|p out Ea Ep Es Eg]; cbn [fst snd].
  1-2: exists (rolled c d rs); split; [exact H2|left; split; [reflexivity|discriminate]].
  1-2: eexists; split; [apply H3|left; split; [reflexivity|try destruct sh; discriminate]].
  eexists. split; [apply H3|]. right. exists p, out. split; [|reflexivity].
  split; [eauto|]. split; [assumption|reflexivity].
Qed.

Lemma cleared_secs c (A : section -> disk -> Prop) d :
  A SRead d -> A SClear (norm c d) -> secs c A d (cleared c d).
Proof. intros H1 H2. apply secs_cons with (k := SRead); [exact H1|]. apply (secs_one c _ SClear), H2. Qed.

Lemma update_secs_cleared c d ch r dl :
  secs c (update_sec c r dl (snd (fst (do_update c d ch r dl)))) (cleared c d) (fst (fst (do_update c d ch r dl))).
Proof.
  destruct (update_split c d ch r dl) as (d3 & H & [[-> _] | (p & out & Hi & ->)]).
  - eapply secs_mono; [|exact H]. intros [] x; auto; intros [E|E]; discriminate E.
  - eapply secs_app; [eapply secs_mono; [|exact H]|apply (secs_one c _ _ _ Hi)].
    intros [] x; auto; intros [E|E]; discriminate E.
Qed.

Lemma do_update_secs c d ch r dl :
  secs c (update_sec c r dl (snd (fst (do_update c d ch r dl)))) d (fst (fst (do_update c d ch r dl))).
Proof. eapply secs_app; [apply cleared_secs; [left; reflexivity|exact I]|apply update_secs_cleared]. Qed.

Definition actor (w : world) (o : op) (c : cfg) : Prop :=
  match o with
  | OInit relv y pk => w_cfg w = None /\ pk = true /\ cfg_of relv y = Some c
  | ODamage _ | OKill => False
  | _ => w_cfg w = Some c
  end.

Definition op_sec (o : op) : option section :=
  match o with
  | ONextNum | ONextPath => Some SNext
  | OCurNum => Some SRead
  | OStart => Some SStart
  | OSuccess => Some SSuccess
  | OFailure => Some (SFail MsgEngine)
  | OInit _ _ _ => Some (SFail MsgInit)
  | _ => None
  end.

Local Opaque Model.do_update.

Variant step_view (w : world) (o : op) : disk -> Prop :=
| SvDamage g : o = ODamage g -> step_view w o (apply_damage (w_disk w) g)
| SvIdle : step_view w o (w_disk w)
| SvOne c k : actor w o c -> op_sec o = Some k -> step_view w o (sec_disk c k (w_disk w))
| SvCheck c ch r : actor w o c -> o = OCheck ch r ->
    step_view w o (fst (fst (do_check c (w_disk w) ch r)))
| SvUpdate c ch r dl : actor w o c -> o = OUpdate ch r dl ->
    step_view w o (fst (fst (do_update c (w_disk w) ch r dl))).

Lemma step_disk_view w o : step_view w o (w_disk (fst (fst (step w o)))).
Proof.
  destruct w as [d cf].
  assert (One : forall c k, actor {| w_disk := d; w_cfg := cf |} o c -> op_sec o = Some k ->
                  step_view {| w_disk := d; w_cfg := cf |} o (sec_disk c k d)) by (intros; eapply SvOne; eauto).
  destruct o as [relv y pk| | | | | | | | |ch r|ch r dl|g]; cbn;
    try (destruct cf as [c|]; cbn; [|apply SvIdle]); try apply SvIdle.
  - destruct (cfg_of relv y) as [c|] eqn:Ec; cbn; [|apply SvIdle]. destruct pk; cbn; [|apply SvIdle].
    destruct cf; cbn; [apply SvIdle|]. rewrite cs_init_recover_disk. apply (One c (SFail MsgInit)); cbn; auto.
  - pose proof (One c SNext eq_refl eq_refl) as H. cbn in H. destruct (cs_next c d). exact H.
  - pose proof (One c SNext eq_refl eq_refl) as H. cbn in H. destruct (cs_next c d). exact H.
  - apply (One c SRead); reflexivity.
  - apply (One c SStart); reflexivity.
  - pose proof (One c SSuccess eq_refl eq_refl) as H. cbn in H. destruct (cs_success c d). exact H.
  - pose proof (One c (SFail MsgEngine) eq_refl eq_refl) as H. cbn in H.
    rewrite <- cs_failure_disk in H. destruct (cs_failure c d). exact H.
  - pose proof (SvCheck {| w_disk := d; w_cfg := Some c |} (OCheck ch r) c ch r eq_refl eq_refl) as H. cbn in H.
    destruct (do_check c d ch r) as [[? ?] ?]. exact H.
  - pose proof (SvUpdate {| w_disk := d; w_cfg := Some c |} (OUpdate ch r dl) c ch r dl eq_refl eq_refl) as H. cbn in H.
    destruct (do_update c d ch r dl) as [[? ?] ?]. exact H.
  - apply (SvDamage {| w_disk := d; w_cfg := cf |} _ g). reflexivity.
Qed.

Lemma step_update_status w c ch r dl :
  w_cfg w = Some c ->
  snd (fst (step w (OUpdate ch r dl))) = RStatus (status_code (snd (fst (do_update c (w_disk w) ch r dl)))).
Proof. destruct w as [d cf]. cbn. intros ->. destruct (do_update c d ch r dl) as [[? ?] ?]. reflexivity. Qed.

Definition call_sec (c : cfg) (w : world) (o : op) (k : section) (d : disk) : Prop :=
  match o with
  | OCheck _ r => check_sec r k d
  | OUpdate ch r dl => update_sec c r dl (snd (fst (do_update c (w_disk w) ch r dl))) k d
  | _ => op_sec o = Some k
  end.

(* only an update runs an install section *)
Lemma call_sec_install c w o p out d :
  call_sec c w o (SInstall p out) d ->
  exists ch r dl, o = OUpdate ch r dl /\
    update_sec c r dl (snd (fst (do_update c (w_disk w) ch r dl))) (SInstall p out) d.
Proof. destruct o; cbn; try discriminate; try (intros [E|E]; discriminate E). eauto. Qed.

Theorem step_inv (P : disk -> Prop) w o :
  (forall g, o = ODamage g -> P (w_disk w) -> P (apply_damage (w_disk w) g)) ->
  (forall c k d, actor w o c -> call_sec c w o k d -> P d -> P (sec_disk c k d)) ->
  P (w_disk w) -> P (w_disk (fst (fst (step w o)))).
Proof.
  intros Hg Hk H. destruct (step_disk_view w o) as [g E| |c k Ha E|c ch r Hc E|c ch r dl Hc E]; auto.
  - apply (Hk c k); auto. destruct o; try discriminate; exact E.
  - subst o. apply (secs_inv c _ P (fun k d => Hk c k d Hc) _ _ (do_check_secs c (w_disk w) ch r) H).
  - subst o. apply (secs_inv c _ P (fun k d => Hk c k d Hc) _ _ (do_update_secs c (w_disk w) ch r dl) H).
Qed.

Lemma step_cfg w o :
  let w' := fst (fst (step w o)) in
  w_cfg w' = w_cfg w \/ (o = OKill /\ w_cfg w' = None) \/ (exists c, actor w o c /\ w_cfg w' = Some c).
Proof.
  destruct w as [d cf]. destruct o; cbn; auto;
    try (destruct cf; cbn; auto;
         repeat match goal with |- context [let '(_, _) := ?x in _] => destruct x end; auto; fail).
  destruct (cfg_of relv y) as [c|] eqn:Ec; cbn; auto. destruct paths_ok; cbn; auto.
  destruct cf; cbn; auto. right. right. exists c. auto.
Qed.

End Sections.
