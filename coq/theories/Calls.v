(* Call-level theorems: repeated init and the configuration in use (C14), requests (C20),
   release change (C08), hash gate (C05), network failures (C06), bad key (C07), events (C17),
   reclamation (C19), result domains (C13). *)
From UV Require Import Base Model PMLemmas Sections Inv Ban.

Section Calls.
Variable sha : bytes -> bytes.
Variable sigok : string -> string -> string -> bool.
Variable zdec : bytes -> bytes.
Variable base : bytes.

Notation validate := (validate sha sigok).
Notation fall_back := (fall_back sha sigok).
Notation boot_failure := (boot_failure sha sigok).
Notation cs_next := (cs_next sha sigok).
Notation cs_rollback := (cs_rollback sha sigok).
Notation should_install := (should_install sha sigok).
Notation do_check := (do_check sha sigok).
Notation do_update := (do_update sha sigok zdec base).
Notation step := (step sha sigok zdec base).
Notation inflate := (inflate zdec base).
Notation hash_ok := (hash_ok sha).
Notation do_update_answer := (do_update_answer sha sigok zdec base).
Notation rolled := (rolled sha sigok).

(* C14 *)
Theorem init_inert w c relv y p :
  w_cfg w = Some c -> step w (OInit relv y p) = (w, RBool false, []).
Proof.
  intros H. destruct w as [d cf]. cbn in *. subst cf.
  destruct (cfg_of relv y); cbn; auto. destruct p; cbn; auto.
Qed.

(* I-cfg *)
Theorem cfg_preserved w o c :
  w_cfg w = Some c -> o <> OKill -> w_cfg (fst (fst (step w o))) = Some c.
Proof.
  intros H Hk. destruct (step_cfg sha sigok zdec base w o) as [-> | [[-> _] | (c' & Ha & ->)]]; auto;
    [contradiction|].
  destruct o; cbn in Ha; try contradiction; try congruence. destruct Ha as [Hn _]. congruence.
Qed.

(* C20 *)
Definition chan_of (o : op) : option (option string) :=
  match o with OCheck ch _ => Some ch | OUpdate ch _ _ => Some ch | _ => None end.

Lemma do_check_log c d ch r : snd (do_check c d ch r) = [NCheck (mk_request c ch)].
Proof.
  unfold Model.do_check. destruct r as [rs|]; [|reflexivity].
  destruct (r_patch rs) as [p|]; [|reflexivity].
  destruct (should_install c _ (p_num p)). reflexivity.
Qed.

Lemma sent_check c d ch q : In (NCheck q) (sent c d ch) -> q = mk_request c ch.
Proof.
  intros H. apply in_app_or in H. destruct H as [H|[H|[]]]; [|congruence].
  apply in_map_iff in H. destruct H as [e [E _]]. discriminate.
Qed.

Lemma cs_install_result c d p out d' :
  cs_install c d p out = (d', UInstalled) ->
  nb (load_p d') = Some {| m_num := p_num p; m_size := blen out; m_hash := p_hash p; m_sig := p_sig p |} /\
  arts d' (p_num p) = Some (AFile out).
Proof.
  unfold Model.cs_install. destruct (inb (p_num p) (bad (load_p (norm c d)))); [discriminate|].
  unfold add_patch. intros H. injection H as <-. split; [reflexivity|].
  cbn. destruct (nb (load_p (norm c d))) as [x|]; [destruct (lb (load_p (norm c d))) as [l|]|]; cbn;
    try apply upd_art_same.
  destruct (negb (N.eqb (m_num l) (m_num x)) && negb (N.eqb (m_num x) (p_num p)) &&
            negb (numeq (cb (load_p (norm c d))) (m_num x))) eqn:E; cbn; try apply upd_art_same.
  apply andb_prop in E. destruct E as [E _]. apply andb_prop in E. destruct E as [_ E].
  apply negb_true_iff, N.eqb_neq in E.
  rewrite upd_art_other by congruence. apply upd_art_same.
Qed.

Lemma cs_install_cases c d p out :
  snd (cs_install c d p out) = UInstalled \/
  cs_install c d p out = (norm c d, UBadPatch).
Proof. unfold Model.cs_install. destruct (inb _ _); cbn; auto. Qed.

(* after what is sent: nothing, a download, or (exactly when the patch is installed) a download and its event *)
Lemma do_update_log c d ch r dl :
  exists rest, snd (do_update c d ch r dl) = sent c d ch ++ rest /\
    ((snd (fst (do_update c d ch r dl)) <> UInstalled /\ (rest = [] \/ exists u, rest = [NDownload u])) \/
     exists p, snd (fst (do_update c d ch r dl)) = UInstalled /\
               rest = [NDownload (p_url p); NEvent (mk_event c EvDownload (p_num p) MsgNone)] /\
               onum (nb (load_p (fst (fst (do_update c d ch r dl))))) = Some (p_num p)).
Proof.
  destruct r as [rs|];
    [destruct (do_update_answer c d ch rs dl) as [Ea|Ea Ep|p sh Ea Ep Es Hsh|p Ea Ep Es Eg|p out Ea Ep Es Eg d3]|];
    cbn [fst snd].
  1-2,6: exists []; rewrite app_nil_r; split; [reflexivity|left; split; [discriminate|left; reflexivity]].
  - exists []. rewrite app_nil_r. split; [reflexivity|]. left. split; [destruct sh; discriminate|left; reflexivity].
  - exists [NDownload (p_url p)]. split; [reflexivity|]. left. split; [discriminate|right; eauto].
  - destruct (cs_install c d3 p out) as [d4 st] eqn:Ec. cbn [fst snd].
    destruct (cs_install_cases c d3 p out) as [E|E]; rewrite Ec in E; cbn in E.
    + subst st. exists [NDownload (p_url p); NEvent (mk_event c EvDownload (p_num p) MsgNone)].
      split; [rewrite <- app_assoc; reflexivity|]. right. exists p. split; [reflexivity|]. split; [reflexivity|].
      destruct (cs_install_result c d3 p out d4 Ec) as [Hnb _]. rewrite Hnb. reflexivity.
    + injection E as -> ->. exists [NDownload (p_url p)]. split; [reflexivity|]. left. split; [discriminate|right; eauto].
Qed.

Lemma do_update_requests c d ch r dl q :
  In (NCheck q) (snd (do_update c d ch r dl)) -> q = mk_request c ch.
Proof.
  destruct (do_update_log c d ch r dl) as (rest & -> & H). intros Hi.
  apply in_app_or in Hi. destruct Hi as [Hi|Hi]; [exact (sent_check c d ch q Hi)|]. exfalso.
  destruct H as [[_ [->|[u ->]]]|(p & _ & -> & _)]; repeat (destruct Hi as [Hi|Hi]; [discriminate|]); exact Hi.
Qed.

Lemma cs_success_no_check c d q : ~ In (NCheck q) (snd (cs_success c d)).
Proof.
  unfold Model.cs_success. destruct (cb (load_p (norm c d))) as [b|]; [|intros []].
  destruct (boot_success (norm c d) (load_p (norm c d))). cbn.
  destruct (numeq _ _); intros H; [destruct H|destruct H as [H|[]]; discriminate].
Qed.

Local Opaque Model.do_update.

Theorem request_formula w o c q :
  w_cfg w = Some c -> In (NCheck q) (snd (step w o)) ->
  exists ch, chan_of o = Some ch /\
             q = {| q_app := c_app c;
                    q_chan := match ch with Some x => x | None => c_chan c end;
                    q_rel := c_rel c |}.
Proof.
  intros H. destruct w as [d cf]. cbn in H. subst cf.
  destruct o as [relv y pk| | | | | | | | |ch r|ch r dl|g]; cbn;
    try (intros []; fail);
    try (match goal with |- context [let '(_, _) := ?x in _] => destruct x end; intros []; fail).
  - destruct (cfg_of relv y); cbn; [destruct pk; cbn|]; intros [].
  - pose proof (cs_success_no_check c d q) as Hn. destruct (cs_success c d) as [d1 l]. cbn in *.
    intros H. contradiction.
  - pose proof (do_check_log c d ch r) as H.
    destruct (do_check c d ch r) as [[? ?] l]. cbn in *. subst l. intros [Hi|[]]. exists ch. split; [reflexivity|].
    injection Hi as <-. reflexivity.
  - pose proof (do_update_requests c d ch r dl q) as H.
    destruct (do_update c d ch r dl) as [[? ?] l]. cbn in *. intros Hi. exists ch. split; [reflexivity|].
    rewrite (H Hi). reflexivity.
Qed.

Local Transparent Model.do_update.

Theorem cfg_channel relv app chan key auto c :
  cfg_of relv (YOk app chan key auto) = Some c ->
  c_app c = app /\ c_rel c = relv /\ c_key c = key /\
  c_chan c = match chan with Some x => x | None => "stable"%string end.
Proof. cbn. intros H. injection H as <-. cbn. auto. Qed.

Fixpoint all_requests_ok (c : cfg) (w : world) (ops : list op) : Prop :=
  match ops with
  | [] => True
  | o :: rest =>
      (forall q, In (NCheck q) (snd (step w o)) ->
                 exists ch, chan_of o = Some ch /\
                            q = {| q_app := c_app c;
                                   q_chan := match ch with Some x => x | None => c_chan c end;
                                   q_rel := c_rel c |}) /\
      all_requests_ok c (fst (fst (step w o))) rest
  end.

Theorem requests_never_leak c ops : forall w,
  w_cfg w = Some c -> ~ In OKill ops -> all_requests_ok c w ops.
Proof.
  induction ops as [|o rest IH]; intros w H Hk; cbn; auto. split.
  - intros q. apply request_formula. exact H.
  - apply IH.
    + apply cfg_preserved; auto. intros ->. apply Hk. left. reflexivity.
    + intros Hi. apply Hk. right. exact Hi.
Qed.

(* C08 *)
Definition other_release (relv : string) (d : disk) : Prop :=
  forall s, sj d = JOk s -> rel s <> relv.

Lemma norm_other c d : other_release (c_rel c) d -> norm c d = fresh_disk (c_rel c).
Proof.
  unfold norm, other_release. intros H. destruct (sj d) as [| |s]; auto.
  destruct (String.eqb_spec (rel s) (c_rel c)) as [E|E]; auto. exfalso. eapply H; eauto.
Qed.

Theorem release_change_init d relv y c :
  cfg_of relv y = Some c -> other_release relv d ->
  step {| w_disk := d; w_cfg := None |} (OInit relv y true) =
  ({| w_disk := fresh_disk relv; w_cfg := Some c |}, RBool true, []).
Proof.
  intros Hc Ho. cbn. rewrite Hc. cbn.
  pose proof (cfg_of_rel _ _ _ Hc) as Er.
  unfold Model.cs_init_recover. rewrite norm_other by (rewrite Er; exact Ho). rewrite Er. reflexivity.
Qed.

Theorem fresh_queries c :
  cs_current c (fresh_disk (c_rel c)) = (fresh_disk (c_rel c), None) /\
  cs_next c (fresh_disk (c_rel c)) = (fresh_disk (c_rel c), None).
Proof.
  unfold Model.cs_current, Model.cs_next.
  rewrite norm_id by (eexists; split; reflexivity). split; reflexivity.
Qed.

(* C05, C06 *)
Theorem installed_only_if_verified c d ch r dl d' log :
  do_update c d ch r dl = (d', UInstalled, log) ->
  exists rs p bdl out,
    r = Some rs /\ r_avail rs = true /\ r_patch rs = Some p /\ dl = Some bdl /\
    inflate bdl = Some out /\ hash_ok out (p_hash p) = true /\
    nb (load_p d') = Some {| m_num := p_num p; m_size := blen out; m_hash := p_hash p; m_sig := p_sig p |} /\
    arts d' (p_num p) = Some (AFile out).
Proof.
  destruct r as [rs|]; [|discriminate].
  destruct (do_update_answer c d ch rs dl) as [Ea|Ea Ep|p sh Ea Ep Es Hs|p Ea Ep Es Eg|p out Ea Ep Es Eg d3];
    try discriminate; [destruct sh; discriminate|].
  intros H. destruct (cs_install c d3 p out) as [d4 st] eqn:Ec. cbn [fst snd] in H.
  injection H as <- -> _.
  apply gate_some in Eg. destruct Eg as (bdl & Ed & Ei & Eh).
  destruct (cs_install_result c d3 p out d4 Ec) as [H1 H2].
  exists rs, p, bdl, out. repeat split; auto.
Qed.

Lemma do_update_not_haderror c d ch r dl : snd (fst (do_update c d ch r dl)) <> UHadError.
Proof.
  destruct r as [rs|]; [|discriminate].
  destruct (do_update_answer c d ch rs dl) as [Ea|Ea Ep|p sh Ea Ep Es Hs|p Ea Ep Es Eg|p out Ea Ep Es Eg d3];
    cbn [fst snd]; try discriminate; [destruct sh; discriminate|].
  destruct (cs_install_cases c d3 p out) as [E|E]; rewrite E; discriminate.
Qed.

Theorem rejected_download_frame c d ch rs bdl p :
  r_patch rs = Some p ->
  inflate bdl = None \/ (exists out, inflate bdl = Some out /\ hash_ok out (p_hash p) = false) ->
  fst (fst (do_update c d ch (Some rs) (Some bdl))) = fst (fst (do_update c d ch (Some rs) None)) /\
  snd (fst (do_update c d ch (Some rs) (Some bdl))) = snd (fst (do_update c d ch (Some rs) None)) /\
  snd (fst (do_update c d ch (Some rs) (Some bdl))) <> UInstalled.
Proof.
  intros Ep Hbad. unfold Model.do_update. cbn [cs_copy_events].
  destruct (negb (r_avail rs)); cbn [fst snd]; [repeat split; discriminate|].
  rewrite Ep.
  match goal with |- context [should_install c ?x (p_num p)] => destruct (should_install c x (p_num p)) as [d3 sh] end.
  destruct sh; cbn [fst snd]; try (repeat split; discriminate).
  destruct Hbad as [-> | [out [-> Hh]]]; [|rewrite Hh]; cbn [fst snd]; repeat split; discriminate.
Qed.

(* Sections.rolled, with [cleared] spelled out *)
Definition after_rollbacks (c : cfg) (d : disk) (rs : resp) : disk :=
  match r_rb rs with
  | Some l => cs_rollback c (cs_clear_events c (norm c d)) l
  | None => cs_clear_events c (norm c d)
  end.

Theorem check_failure_frame c d ch dl :
  do_update c d ch None dl =
  (cs_clear_events c (norm c d), UError,
   map NEvent (firstn 3 (evq (load_s c (norm c d)))) ++ [NCheck (mk_request c ch)]).
Proof. reflexivity. Qed.

Theorem contradictory_response_frame c d ch rs dl :
  r_avail rs = true -> r_patch rs = None ->
  fst (do_update c d ch (Some rs) dl) = (after_rollbacks c d rs, UError).
Proof.
  intros Ea Ep. unfold Model.do_update, after_rollbacks. cbn [cs_copy_events]. rewrite Ea, Ep. reflexivity.
Qed.

Theorem download_failure_frame c d ch rs p :
  r_avail rs = true -> r_patch rs = Some p ->
  fst (fst (do_update c d ch (Some rs) None)) = fst (should_install c (after_rollbacks c d rs) (p_num p)) /\
  snd (fst (do_update c d ch (Some rs) None)) <> UInstalled.
Proof.
  intros Ea Ep. unfold Model.do_update, after_rollbacks. cbn [cs_copy_events]. rewrite Ea, Ep. cbn [negb].
  match goal with |- context [should_install c ?x (p_num p)] => destruct (should_install c x (p_num p)) as [d3 sh] end.
  destruct sh; cbn; split; auto; discriminate.
Qed.

(* clearing events and re-validating a valid (or empty) selection change neither the patch state nor
   any artifact: hence [settled] in failed_update_unchanged *)
Definition settled (key : option string) (d : disk) : Prop :=
  match nb (load_p d) with Some m => validate key d m = true | None => True end.

Lemma cs_next_settled c d :
  stable (c_rel c) d -> settled (c_key c) d -> cs_next c d = (d, onum (nb (load_p d))).
Proof.
  intros S H. unfold Model.cs_next. rewrite (norm_id c d S). unfold settled in H.
  destruct (nb (load_p d)) as [m|] eqn:E.
  - rewrite (next_boot_valid sha sigok _ _ _ m E H). reflexivity.
  - rewrite (next_boot_none sha sigok _ _ _ E). reflexivity.
Qed.

Lemma should_install_settled c d n :
  stable (c_rel c) d -> settled (c_key c) d -> fst (should_install c d n) = d.
Proof.
  intros S H. unfold Model.should_install. cbn. rewrite (norm_id c d S).
  destruct (inb n (bad (load_p d))); cbn; auto. rewrite (cs_next_settled c d S H).
  destruct (onum _) as [k|]; [destruct (N.eqb k n)|]; reflexivity.
Qed.

Lemma cleared_core c d :
  stable (c_rel c) d ->
  stable (c_rel c) (cleared c d) /\ load_p (cleared c d) = load_p d /\ arts (cleared c d) = arts d.
Proof.
  intros S. split; [apply (sec_stable sha sigok c SClear)|].
  unfold Sections.cleared, Model.cs_clear_events. rewrite norm_idem, (norm_id c d S). split; reflexivity.
Qed.

Lemma cleared_settled c d : stable (c_rel c) d -> settled (c_key c) d -> settled (c_key c) (cleared c d).
Proof.
  intros S H. destruct (cleared_core c d S) as (_ & L & A). unfold settled in *. rewrite L.
  destruct (nb (load_p d)) as [m|]; auto. rewrite <- H. apply validate_arts. rewrite A. reflexivity.
Qed.

Theorem failed_update_unchanged c d ch rs dl :
  stable (c_rel c) d -> settled (c_key c) d -> r_rb rs = None ->
  snd (fst (do_update c d ch (Some rs) dl)) <> UInstalled ->
  let d' := fst (fst (do_update c d ch (Some rs) dl)) in
  load_p d' = load_p d /\ arts d' = arts d.
Proof.
  intros S H Er. destruct (cleared_core c d S) as (S1 & L1).
  pose proof (cleared_settled c d S H) as H1.
  assert (Ero : rolled c d rs = cleared c d) by (unfold Sections.rolled; rewrite Er; reflexivity).
  destruct (do_update_answer c d ch rs dl) as [Ea|Ea Ep|p sh Ea Ep Es Hs|p Ea Ep Es Eg|p out Ea Ep Es Eg d3];
    cbn [fst snd]; intros Hst; rewrite ?Ero, ?should_install_settled; auto.
  subst d3. rewrite Ero, should_install_settled in * by assumption.
  destruct (cs_install_cases c (cleared c d) p out) as [E1|E1]; [contradiction|].
  rewrite E1, (norm_id c _ S1). exact L1.
Qed.

Theorem healthy_update_installs c d ch rs p bdl out :
  stable (c_rel c) d -> settled (c_key c) d ->
  r_rb rs = None -> r_avail rs = true -> r_patch rs = Some p ->
  ~ In (p_num p) (bad (load_p d)) -> onum (nb (load_p d)) <> Some (p_num p) ->
  inflate bdl = Some out -> hash_ok out (p_hash p) = true ->
  snd (fst (do_update c d ch (Some rs) (Some bdl))) = UInstalled.
Proof.
  intros S H Er Ea Ep Hb Hn Ei Eh. destruct (cleared_core c d S) as (S1 & L1 & _).
  pose proof (cleared_settled c d S H) as H1.
  assert (Eb : inb (p_num p) (bad (load_p (cleared c d))) = false).
  { rewrite L1. destruct (inb (p_num p) (bad (load_p d))) eqn:E; auto. apply inb_In in E. contradiction. }
  assert (Esh : should_install c (cleared c d) (p_num p) = (cleared c d, ShOk)).
  { unfold Model.should_install, cs_is_bad. rewrite (norm_id c _ S1), Eb, (cs_next_settled c _ S1 H1), L1.
    destruct (onum (nb (load_p d))) as [k|]; auto. destruct (N.eqb_spec k (p_num p)); auto. congruence. }
  unfold Model.do_update. cbn [cs_copy_events]. rewrite Er, Ea, Ep. cbn [negb].
  fold (cleared c d). rewrite Esh, Ei, Eh.
  unfold Model.cs_install. rewrite (norm_id c _ S1), Eb. reflexivity.
Qed.

(* C07 *)
Theorem bad_key_rejects c d k :
  c_key c = Some k -> (forall m s, sigok k m s = false) -> snd (cs_next c d) = None.
Proof.
  intros Hk Hbad.
  assert (V : forall dd m, validate (c_key c) dd m = false).
  { intros dd m. unfold Model.validate. rewrite Hk. destruct (arts dd (m_num m)) as [[|b]|]; auto.
    destruct (m_sig m); [rewrite Hbad|]; apply andb_false_r. }
  (* a reported number would have a record that validates *)
  destruct (cs_next c d) as [d' [n|]] eqn:E; [exfalso|reflexivity].
  pose proof (cs_next_loaded sha sigok c d) as H. rewrite E in H.
  destruct (next_boot_selected _ _ _ _ _ _ _ _ H) as (m & _ & _ & Hv). rewrite V in Hv. discriminate.
Qed.

(* C17 *)
Theorem success_event c d :
  snd (cs_success c d) =
  match cb (load_p (norm c d)) with
  | Some b => if numeq (lb (load_p (norm c d))) (m_num b) then []
              else [NEvent (mk_event c EvInstallSuccess (m_num b) MsgNone)]
  | None => []
  end.
Proof.
  unfold Model.cs_success. destruct (cb (load_p (norm c d))) as [b|] eqn:E; auto.
  unfold boot_success. rewrite E. reflexivity.
Qed.

Definition evq_of (c : cfg) (d : disk) : list event := evq (load_s c d).

Lemma fail_disk_queues_one c msg d b :
  cb (load_p (norm c d)) = Some b ->
  evq_of c (fail_disk sha sigok c msg d) = evq_of c (norm c d) ++ [mk_event c EvInstallFailure (m_num b) msg].
Proof.
  intros H. unfold fail_disk. rewrite H. unfold evq_of, queue_event, load_s. cbn [sj set_sj evq].
  change (boot_failure ?k ?x ?s ?n) with (Model.fall_back sha sigok k x {| lb := lb s; nb := nb s; cb := None; bad := add_bad n (bad s) |} n).
  rewrite fall_back_sj. reflexivity.
Qed.

Theorem update_flushes c d ch r dl :
  exists rest,
    snd (do_update c d ch r dl) =
      map NEvent (firstn 3 (evq_of c (norm c d))) ++ NCheck (mk_request c ch) :: rest /\
    (forall e, In (NEvent e) rest -> e = mk_event c EvDownload (e_num e) MsgNone /\
                                     snd (fst (do_update c d ch r dl)) = UInstalled) /\
    (snd (fst (do_update c d ch r dl)) = UInstalled ->
     exists p, In (NEvent (mk_event c EvDownload p MsgNone)) rest /\
               onum (nb (load_p (fst (fst (do_update c d ch r dl))))) = Some p).
Proof.
  destruct (do_update_log c d ch r dl) as (rest & -> & H). exists rest.
  split; [unfold sent; rewrite <- app_assoc; reflexivity|].
  destruct H as [[Hst [->|[u ->]]]|(p & -> & -> & Hn)].
  - split; [intros e []|contradiction].
  - split; [intros e [He|[]]; discriminate|contradiction].
  - split; [intros e [He|[He|[]]]; [discriminate|]; injection He as <-; auto|].
    intros _. exists (p_num p). split; [right; left; reflexivity|exact Hn].
Qed.

Lemma norm_sj_congr c x y : sj x = sj y -> sj (norm c x) = sj (norm c y).
Proof.
  intros E. unfold norm. rewrite E. destruct (sj y) as [| |s] eqn:Ey; try reflexivity.
  destruct (String.eqb (rel s) (c_rel c)); [congruence|reflexivity].
Qed.

(* a fresh load leaves the queue alone, or empties it with everything else *)
Lemma evq_norm c d : evq_of c d = [] -> evq_of c (norm c d) = [].
Proof. intros H. destruct (norm_cases c d) as [-> | ->]; [exact H|reflexivity]. Qed.

Theorem update_empties_queue c d ch r dl :
  evq_of c (fst (fst (do_update c d ch r dl))) = [].
Proof.
  (* the queue is emptied at the start and no later section of an update writes state.json *)
  eapply (secs_inv sha sigok c _ (fun x => evq_of c x = []));
    [|apply update_secs_cleared|reflexivity].
  intros k x a H. pose proof (sec_disk_sj sha sigok c k x) as E.
  destruct k; try (destruct a as [Ea|Ea]; discriminate Ea); try reflexivity;
    unfold evq_of, load_s; rewrite E; apply (evq_norm c x H).
Qed.

(* C19 *)
Theorem success_reclaims c d b k :
  cb (load_p (norm c d)) = Some b -> N.lt k (m_num b) ->
  arts (fst (cs_success c d)) k <> None -> numeq (nb (load_p (fst (cs_success c d)))) k = true.
Proof.
  intros H Hk. unfold Model.cs_success. rewrite H. unfold boot_success. rewrite H. cbn.
  apply N.ltb_lt in Hk. rewrite Hk. cbn. destruct (numeq (nb (load_p (norm c d))) k); cbn; auto;
    try (intros Hc; contradiction).
Qed.

Lemma fail_disk_reclaims c msg d b :
  cb (load_p (norm c d)) = Some b -> arts (fail_disk sha sigok c msg d) (m_num b) = None.
Proof. intros H. unfold fail_disk. rewrite H. apply fall_back_deletes. Qed.

(* a never-booted pending patch superseded by an install while an earlier patch is last good *)
Theorem install_reclaims_superseded c d p out x l :
  stable (c_rel c) d -> ~ In (p_num p) (bad (load_p d)) ->
  nb (load_p d) = Some x -> lb (load_p d) = Some l ->
  m_num l <> m_num x -> m_num x <> p_num p -> numeq (cb (load_p d)) (m_num x) = false ->
  arts (fst (cs_install c d p out)) (m_num x) = None /\
  arts (fst (cs_install c d p out)) (m_num l) =
    (if N.eqb (m_num l) (p_num p) then Some (AFile out) else arts d (m_num l)).
Proof.
  intros S Hb Hx Hl H1 H2 H3. unfold Model.cs_install. rewrite (norm_id c d S).
  destruct (inb (p_num p) (bad (load_p d))) eqn:E; [apply inb_In in E; contradiction|].
  unfold add_patch. rewrite Hx, Hl, H3. cbn.
  apply N.eqb_neq in H1, H2. rewrite H1, H2. cbn. split.
  - apply upd_art_same.
  - apply N.eqb_neq in H1. rewrite upd_art_other by auto. unfold upd_art. reflexivity.
Qed.

(* C13 *)
Definition in_domain (o : op) (x : out) : Prop :=
  match o with
  | OInit _ _ _ | OAuto | OCheck _ _ => exists b, x = RBool b
  | ONextNum | OCurNum => exists n, x = RNum n
  | ONextPath => exists r, x = RPath r
  | OUpdate _ _ _ => x = RStatus (-1) \/ x = RStatus 0 \/ x = RStatus 1 \/ x = RStatus 3
  | _ => x = RUnit
  end.

Local Opaque Model.do_update.

Theorem step_in_domain w o : in_domain o (snd (fst (step w o))).
Proof.
  destruct w as [d cf].
  destruct o as [relv y pk| | | | | | | | |ch r|ch r dl|g]; cbn;
    try (destruct cf as [c|]; cbn;
         repeat match goal with |- context [let '(_, _) := ?x in _] => destruct x end; cbn; eauto; fail).
  - destruct (cfg_of relv y); cbn; [destruct pk; cbn; [destruct cf; cbn|]|]; eauto.
  - destruct cf as [c|]; cbn; [|auto].
    pose proof (do_update_not_haderror c d ch r dl) as Hn.
    destruct (do_update c d ch r dl) as [[? u] ?]. destruct u; cbn in *; auto.
    exfalso. apply Hn. reflexivity.
Qed.

End Calls.
