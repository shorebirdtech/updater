(* The per-call action traces of Blocks.v as programs of the lock-level semantics: every
   well-formed trace (Blocks.wf_go) is a well-formed program (LockSem.wfp), so the deadlock-freedom and
   termination theorems of LockSemProofs.v apply to any number of threads issuing any calls. *)
From UV Require Import Base Model Blocks LockSem LockSemProofs.

Definition ocons {A} (x : A) (o : option (list A)) : option (list A) :=
  match o with Some l => Some (x :: l) | None => None end.

(* [cur] = the update body collected so far (between a successful try-lock and the release).
   A try-lock recorded as refused contributes a try with an empty body: nothing ran under it. *)
Fixpoint items_of (l : list action) (cur : option (list act)) : option (list item) :=
  match l with
  | [] => match cur with None => Some [] | Some _ => None end
  | a :: r =>
      match cur with
      | None =>
          match a with
          | AcqCfg => ocons (IAct AAcq) (items_of r None)
          | RelCfg => ocons (IAct ARel) (items_of r None)
          | Net _ => ocons (IAct ANet) (items_of r None)
          | Spawn => items_of r None
          | TryUpd true => items_of r (Some [])
          | TryUpd false => ocons (IUpd []) (items_of r None)
          | RelUpd => None
          end
      | Some b =>
          match a with
          | AcqCfg => items_of r (Some (b ++ [AAcq]))
          | RelCfg => items_of r (Some (b ++ [ARel]))
          | Net _ => items_of r (Some (b ++ [ANet]))
          | Spawn => items_of r (Some b)
          | RelUpd => ocons (IUpd b) (items_of r None)
          | TryUpd _ => None
          end
      end
  end.

Lemma wfa_app a b : forall d d1, wfa d b = Some d1 -> wfa d (b ++ [a]) = next_depth a d1.
Proof.
  induction b as [|x b IH]; intros d d1 H; cbn [app]; rewrite wfa_cons in *.
  - injection H as ->. destruct (next_depth a d1); reflexivity.
  - destruct (next_depth x d); [apply IH; exact H|discriminate].
Qed.

Lemma items_wf l :
  (forall d, wf_go d false l = Some (0%nat, false) ->
     exists p, items_of l None = Some p /\ wfp d p = true) /\
  (forall b d, wfa 0 b = Some d -> wf_go d true l = Some (0%nat, false) ->
     exists body p, items_of l (Some b) = Some (IUpd body :: p) /\
                    wfa 0 body = Some 0%nat /\ wfp 0 p = true).
Proof.
  induction l as [|a r [IH1 IH2]]; split.
  - intros d [= ->]. exists []. split; reflexivity.
  - intros b d _ [=].
  - (* outside an update body: an action is allowed at the depth at which [wfp] allows it *)
    intros d H. destruct a as [| |ok| |what|]; cbn [wf_go items_of] in *.
    + destruct d; [|discriminate].
      destruct (IH1 _ H) as (p & -> & Hw). exists (IAct AAcq :: p). split; [reflexivity|exact Hw].
    + destruct d as [|[|d]]; try discriminate.
      destruct (IH1 _ H) as (p & -> & Hw). exists (IAct ARel :: p). split; [reflexivity|exact Hw].
    + (* a try-lock: granted, the rest begins inside an empty body; refused, it is a try with an empty body *)
      destruct d; [|discriminate]. destruct ok.
      * destruct (IH2 [] 0%nat eq_refl H) as (body & p & Hp & Hb & Hw).
        exists (IUpd body :: p). split; [exact Hp|]. cbn. rewrite Hb. exact Hw.
      * destruct (IH1 _ H) as (p & -> & Hw). exists (IUpd [] :: p). split; [reflexivity|exact Hw].
    + destruct d; discriminate.
    + destruct d; [|discriminate].
      destruct (IH1 _ H) as (p & -> & Hw). exists (IAct ANet :: p). split; [reflexivity|exact Hw].
    + apply IH1. exact H.
  - (* inside: the action joins the body, well formed up to the new depth by [wfa_app] *)
    intros b d Hb H. destruct a as [| |ok| |what|]; cbn [wf_go items_of] in *.
    + destruct d; [|discriminate].
      apply (IH2 (b ++ [AAcq]) 1%nat); [|exact H]. rewrite (wfa_app _ _ _ _ Hb). reflexivity.
    + destruct d as [|[|d]]; try discriminate.
      apply (IH2 (b ++ [ARel]) 0%nat); [|exact H]. rewrite (wfa_app _ _ _ _ Hb). reflexivity.
    + destruct d; discriminate.
    + (* the release closes the body *)
      destruct d; [|discriminate].
      destruct (IH1 _ H) as (p & -> & Hw). exists b, p. auto.
    + destruct d; [|discriminate].
      apply (IH2 (b ++ [ANet]) 0%nat); [|exact H]. rewrite (wfa_app _ _ _ _ Hb). reflexivity.
    + apply (IH2 b d Hb H).
Qed.

Lemma wfp_app p1 : forall d p2, wfp d p1 = true -> wfp 0 p2 = true -> wfp d (p1 ++ p2) = true.
Proof.
  induction p1 as [|x p1 IH]; intros d p2 H1 H2; cbn [app].
  - cbn in H1. apply Nat.eqb_eq in H1. subst d. exact H2.
  - destruct x as [a|body].
    + rewrite wfp_cons in *. destruct (next_depth a d); [auto|discriminate].
    + cbn [wfp] in *. apply andb_prop in H1. destruct H1 as [H1 Hr]. rewrite H1. cbn. auto.
Qed.

Theorem try_never_blocks i t body r co uo :
  inside t = None -> rest t = IUpd body :: r ->
  exists t', th_step i t co uo = Some (t', co, match uo with None => Some i | Some k => Some k end) /\
             rest t' = r /\
             inside t' = match uo with None => Some body | Some _ => None end.
Proof.
  intros Hi Hr. unfold th_step. rewrite Hi, Hr. destruct uo as [k|]; eexists; split; cbn; auto.
Qed.

Section Link.
Variable sha : bytes -> bytes.
Variable sigok : string -> string -> string -> bool.
Variable zdec : bytes -> bytes.
Variable base : bytes.

Definition call_program (wo : world * op) : list item :=
  match items_of (world_actions sha sigok zdec base (fst wo) (snd wo)) None with
  | Some p => p
  | None => []
  end.

Lemma call_program_wf wo : wfp 0 (call_program wo) = true.
Proof.
  unfold call_program.
  destruct (proj1 (items_wf _) 0%nat (world_actions_wf sha sigok zdec base (fst wo) (snd wo))) as (p & -> & Hw).
  exact Hw.
Qed.

(* the worlds are arbitrary: whatever state each call finds *)
Definition thread_program (calls : list (world * op)) : list item :=
  List.concat (map call_program calls).

Lemma thread_program_wf calls : wfp 0 (thread_program calls) = true.
Proof.
  induction calls as [|c r IH]; [reflexivity|].
  unfold thread_program. cbn [map List.concat]. apply wfp_app; [apply call_program_wf|exact IH].
Qed.

Definition system_of (threads : list (list (world * op))) : sys :=
  init_sys (map thread_program threads).

Lemma system_ok threads : sys_ok (system_of threads).
Proof.
  apply init_ok, Forall_map, Forall_forall. intros calls _. apply thread_program_wf.
Qed.

Theorem no_deadlock_any_schedule threads order :
  let s := run_sched (system_of threads) order in
  ((exists i t, nth_error (LockSem.threads s) i = Some t /\ th_done t = false) ->
   exists i, sys_step s i <> None) /\
  (exists rest, (List.length rest <= sys_work s)%nat /\ all_done (run_sched s rest)).
Proof.
  intros s. assert (Hok : sys_ok s) by (apply reachable_ok; apply system_ok). split.
  - apply no_deadlock. exact Hok.
  - apply (completion_exists (sys_work s) s Hok). lia.
Qed.

End Link.
