(* What the writer model writes is a sentence of the grammar, and is read back as the value written.
   So every in-range value whose strings are text has a text that is read as that value: the state files as the library
   writes them, a patch-check answer laid out by the same printer. *)
From UV Require Import Base Model Json JsonProofs JsonText JsonTextProofs JsonTextSound JsonTextExist JsonTorn JsonState
  JsonStateProofs JsonStateExist JsonSj JsonSjProofs JsonSjWidth JsonSjExist JsonWrite.
From Coq Require Import ZifyN ZifyBool ZifyNat Lia.
Local Open Scope N_scope.

(* a control character as \u00XX *)
Lemma hex4_ctrl c : c < 32 -> hex4 [48; 48; hexd (c / 16); hexd (c mod 16)] = Some (c, []).
Proof.
  intros H.
  assert (Hall : forallb (fun k => match hex4 [48; 48; hexd (k / 16); hexd (k mod 16)] with
                                   | Some (v, []) => v =? k | _ => false end) (map N.of_nat (seq 0 32)) = true)
    by (vm_compute; reflexivity).
  rewrite forallb_forall in Hall.
  assert (Hin : In c (map N.of_nat (seq 0 32))).
  { apply in_map_iff. exists (N.to_nat c). split; [lia|]. apply in_seq. lia. }
  specialize (Hall c Hin). destruct (hex4 [48; 48; hexd (c / 16); hexd (c mod 16)]) as [[v [|x r]]|]; try discriminate.
  f_equal. f_equal. lia.
Qed.

Lemma Item_esc_byte c : Item (esc_byte c) [c].
Proof.
  unfold esc_byte.
  (* the seven bytes with an escape of their own, one after the other *)
  repeat match goal with |- Item (if c =? ?x then _ else _) _ =>
    destruct (N.eqb_spec c x) as [->|?]; [apply I_esc; [reflexivity|lia]|] end.
  destruct (N.ltb_spec c 32) as [H32|H32].
  - replace [c] with (utf8_enc c) by (unfold utf8_enc; assert (E : (c <? 128) = true) by lia; rewrite E; reflexivity).
    apply I_u.
    + apply hex4_ctrl. exact H32.
    + unfold is_low_surrogate. lia.
    + unfold is_high_surrogate. lia.
  - apply I_raw; assumption.
Qed.

Lemma Body_esc s : Body (flat_map esc_byte s) s.
Proof.
  induction s as [|c s IH]; [constructor|]. cbn [flat_map]. change (c :: s) with ([c] ++ s).
  constructor; [apply Item_esc_byte|exact IH].
Qed.

Lemma Gstr_w_str s : utf8_valid s = true -> Gstr s (w_str s).
Proof. intros H. exists (flat_map esc_byte s). repeat split; [apply Body_esc|exact H]. Qed.

Lemma bytes_of_string_same s : bytes_of_string s = bytes_of s.
Proof. reflexivity. Qed.

Lemma G_w_string s : utf8_valid (bytes_of s) = true -> G (JStr s) (w_string s).
Proof. intros H. rewrite <- (str_of_bytes_of s) at 1. constructor. exact (Gstr_w_str (bytes_of s) H). Qed.

Lemma val_from_app acc ds d : val_from acc (ds ++ [d]) = val_from acc ds * 10 + (d - 48).
Proof. unfold val_from. rewrite fold_left_app. reflexivity. Qed.

Lemma w_digits_S f n acc :
  w_digits (S f) n acc = if n <? 10 then (48 + n mod 10) :: acc else w_digits f (n / 10) ((48 + n mod 10) :: acc).
Proof. reflexivity. Qed.

Lemma w_digits_small f n acc : n < 10 -> w_digits (S f) n acc = [48 + n] ++ acc.
Proof.
  intros H. assert (E : (n <? 10) = true) by lia. rewrite w_digits_S, E, N.mod_small by exact H. reflexivity.
Qed.

Lemma IntPart_digit n : n < 10 -> IntPart [48 + n] n.
Proof.
  intros H. destruct (N.eq_dec n 0) as [->|Hnz]; [apply IP_zero|].
  replace n with (val_from 0 [48 + n]) at 2 by (unfold val_from; cbn [fold_left]; lia).
  apply IP_nz; [unfold is_digit; lia|lia|constructor].
Qed.

Lemma w_digits_spec : forall f n acc, n < 10 ^ N.of_nat (S f) ->
  exists ds, w_digits (S f) n acc = ds ++ acc /\ IntPart ds n.
Proof.
  induction f as [|f IH]; intros n acc Hn; destruct (N.ltb_spec n 10) as [Hlt|Hge].
  1, 3: exists [48 + n]; split; [apply w_digits_small; exact Hlt|apply IntPart_digit; exact Hlt].
  { exfalso. change (10 ^ N.of_nat 1) with 10 in Hn. lia. }
  assert (Hq : n / 10 < 10 ^ N.of_nat (S f)).
  { rewrite (Nat2N.inj_succ (S f)), N.pow_succ_r' in Hn. apply N.div_lt_upper_bound; lia. }
  destruct (IH (n / 10) ((48 + n mod 10) :: acc) Hq) as (ds & E & Hip).
  exists (ds ++ [48 + n mod 10]). split.
  { assert (E10 : (n <? 10) = false) by lia. rewrite w_digits_S, E10, E, <- app_assoc. reflexivity. }
  assert (Hm : n mod 10 < 10) by (apply N.mod_lt; lia). pose proof (N.div_mod n 10 ltac:(lia)) as Hdm.
  (* n / 10 is not 0, so its digits are a leading digit and more; the last digit goes behind them *)
  inversion Hip as [E0 E1|d ds' Hd Hd0 Hds E0 E1]; [lia|]. subst ds.
  replace n with (val_from 0 ((d :: ds') ++ [48 + n mod 10])) at 2
    by (rewrite val_from_app; change (val_from 0 (d :: ds')) with (val_from (0 * 10 + (d - 48)) ds'); lia).
  apply IP_nz; [exact Hd|exact Hd0|]. apply Forall_app. split; [exact Hds|]. constructor; [unfold is_digit; lia|constructor].
Qed.

Lemma IntPart_w_num v : v < two64 -> IntPart (w_num v) v.
Proof.
  intros Hv. unfold w_num.
  assert (H20 : v < 10 ^ N.of_nat 20) by (unfold two64, Codec.two64 in Hv; change (10 ^ N.of_nat 20) with 100000000000000000000; lia).
  destruct (w_digits_spec 19 v [] H20) as (ds & E & Hip). rewrite E, app_nil_r. exact Hip.
Qed.

Lemma G_w_num v : v < two64 -> G (JNum (JInt false v)) (w_num v).
Proof.
  intros Hv. constructor. exists false, (w_num v), v, [], false, [], false.
  repeat split; try constructor.
  - cbn [app]. rewrite !app_nil_r. reflexivity.
  - apply IntPart_w_num. exact Hv.
  - unfold classify. assert (E : (v <? two64) = true) by lia. cbn. rewrite ?E. reflexivity.
Qed.

Lemma WS_nl k : WS (nl k).
Proof. unfold nl. constructor; [reflexivity|]. apply Forall_forall. intros x Hx. apply repeat_spec in Hx. subst x. reflexivity. Qed.
Lemma WS_sp : WS [32]. Proof. repeat constructor. Qed.
Lemma WSnil : WS []. Proof. constructor. Qed.

Definition member_ok fs (j : string * json) (b : string * bytes) : Prop :=
  fst j = fst b /\ utf8_valid (bytes_of (fst j)) = true /\ GSV fs (fst j) (snd j) (snd b).

Lemma member_known fs k sc v b :
  utf8_valid (bytes_of k) = true -> field_of k fs = Some sc -> GS sc v b -> member_ok fs (k, v) (k, b).
Proof. intros Hu Hk Hg. split; [reflexivity|]. split; [exact Hu|exact (GSV_known fs k sc v b Hk Hg)]. Qed.

Lemma member_leaf fs k v b :
  utf8_valid (bytes_of k) = true -> field_of k fs = Some SLeaf -> G v b -> member_ok fs (k, v) (k, b).
Proof. intros Hu Hk Hg. exact (member_known fs k SLeaf v b Hu Hk (GS_leaf v b Hg)). Qed.

(* The [++ []] of w_members stand for the white space the grammar allows before ':' and ',' and the printer does not
   use: as it stands, the written text is an instance of GSM_last / GSM_cons. *)
Lemma GSM_members_ok fs indent js bs : js <> [] -> Forall2 (member_ok fs) js bs -> GSM fs js (w_members indent bs).
Proof.
  intros Hne HF. induction HF as [|[k v] [k' vb] js bs (Ek & Hk & Hv) HF IH]; [contradiction|].
  cbn [fst snd] in *. subst k'. rewrite <- (str_of_bytes_of k) in Hv. rewrite <- (str_of_bytes_of k) at 1.
  destruct HF as [|j b' js bs Hj HF]; cbn [w_members].
  - apply GSM_last; auto using WSnil, WS_sp, WS_nl. exact (Gstr_w_str (bytes_of k) Hk).
  - apply GSM_cons; auto using WSnil, WS_sp, WS_nl; [exact (Gstr_w_str (bytes_of k) Hk)|]. apply IH. discriminate.
Qed.

Lemma GS_w_object fs indent js bs : js <> [] -> Forall2 (member_ok fs) js bs ->
  GS (SStruct fs) (JObj js) (w_object indent bs).
Proof. intros Hne HF. apply GS_obj; [apply WS_nl|]. apply GSM_members_ok; assumption. Qed.

Lemma GSM_w_members fs indent : forall (l : list (string * json * bytes)), l <> [] ->
  Forall (fun x => utf8_valid (bytes_of (fst (fst x))) = true /\ GSV fs (fst (fst x)) (snd (fst x)) (snd x)) l ->
  GSM fs (map (fun x => (fst (fst x), snd (fst x))) l) (w_members indent (map (fun x => (fst (fst x), snd x)) l)).
Proof.
  intros l Hne HF. apply GSM_members_ok; [destruct l; [contradiction|discriminate]|].
  clear Hne. induction HF as [|x l [Hk Hv] _ IH]; cbn [map]; constructor; [|exact IH]. repeat split; assumption.
Qed.

Lemma GS_null fs : GS (SStruct fs) JNull w_null.
Proof. apply GS_other; [constructor|intros r0; discriminate|intros r0; discriminate]. Qed.

Lemma GE_w_nums indent : forall l, l <> [] -> Forall (fun n => n < two64) l ->
  GE (map (fun n => JNum (JInt false n)) l) (w_elems indent (map w_num l)).
Proof.
  induction l as [|n l IH]; intros Hne HF; [contradiction|].
  inversion HF as [|? ? Hn HF']; subst.
  destruct l as [|m l'].
  - cbn [map w_elems]. apply GE_last; [apply G_w_num; exact Hn|apply WS_nl].
  - specialize (IH ltac:(discriminate) HF'). cbn [map] in *. cbn [w_elems].
    apply GE_cons; auto using WSnil, WS_nl. apply G_w_num. exact Hn.
Qed.
Lemma G_w_nums l : Forall (fun n => n < two64) l -> G (JArr (map (fun n => JNum (JInt false n)) l)) (w_array 1 (map w_num l)).
Proof.
  intros HF. destruct l as [|n l].
  - cbn [map w_array]. apply G_arr0. apply WSnil.
  - unfold w_array. cbn [map]. apply G_arr; [apply WS_nl|]. apply (GE_w_nums 2 (n :: l)); [discriminate|exact HF].
Qed.

Lemma G_w_ostring o : ostring_utf8 o -> G (json_of_ostring o) (w_ostring o).
Proof. destruct o as [s|]; intros H; cbn [json_of_ostring w_ostring]; [apply G_w_string; exact H|constructor]. Qed.

Lemma GS_w_meta indent m : meta_in_range m -> meta_utf8 m -> GS meta_schema (json_of_meta m) (w_meta indent m).
Proof.
  intros [Hn Hz] [Hh Hs]. apply GS_w_object; [discriminate|].
  repeat apply Forall2_cons; [| | | |apply Forall2_nil].
  - apply member_leaf; [reflexivity|reflexivity|]. apply G_w_num. exact Hn.
  - apply member_leaf; [reflexivity|reflexivity|]. apply G_w_num. exact Hz.
  - apply member_leaf; [reflexivity|reflexivity|]. apply G_w_string. exact Hh.
  - apply member_leaf; [reflexivity|reflexivity|]. apply G_w_ostring. exact Hs.
Qed.

Lemma GS_w_ometa indent o : ometa_in_range o -> ometa_utf8 o -> GS meta_schema (json_of_ometa o) (w_ometa indent o).
Proof. destruct o as [m|]; intros Hr Hu; [apply GS_w_meta; assumption|apply GS_null]. Qed.

Lemma GS_w_pstate s : pstate_in_range s -> pstate_utf8 s -> GS pstate_schema (json_of_pstate s) (w_pstate s).
Proof.
  intros (H1 & H2 & H3 & H4 & H5) (U1 & U2 & U3). apply GS_w_object; [discriminate|].
  repeat apply Forall2_cons; [| | | |apply Forall2_nil].
  - eapply member_known; [reflexivity|reflexivity|]. apply GS_w_ometa; assumption.
  - eapply member_known; [reflexivity|reflexivity|]. apply GS_w_ometa; assumption.
  - eapply member_known; [reflexivity|reflexivity|]. apply GS_w_ometa; assumption.
  - apply member_leaf; [reflexivity|reflexivity|]. apply G_w_nums. exact H4.
Qed.

Lemma w_pstate_is_read s : pstate_in_range s -> pstate_utf8 s -> pstate_of_body (w_pstate s) = Some s.
Proof.
  intros Hr Hu. rewrite <- (app_nil_r (w_pstate s)).
  exact (spelled_pstate_is_read s (w_pstate s) [] [] Hr (GS_w_pstate s Hr Hu) WSnil WSnil).
Qed.

Theorem written_pstate_is_read_back s : pstate_in_range s -> pstate_utf8 s -> pj_of_file (w_pstate s) = JOk s.
Proof. intros Hr Hu. unfold pj_of_file. rewrite (w_pstate_is_read s Hr Hu). reflexivity. Qed.

(* the writer and the tree of an event (JsonSjProofs.json_of_fevent) each spell the three wire names *)
Lemma evkind_wire_str k : evkind_wire k = evkind_str k.
Proof. destruct k; reflexivity. Qed.

Lemma evkind_str_utf8 k : utf8_valid (bytes_of (evkind_str k)) = true.
Proof. destruct k; vm_compute; reflexivity. Qed.

Lemma GS_w_fevent indent e : fevent_in_range e -> fevent_utf8 e -> GS event_schema (json_of_fevent e) (w_fevent indent e).
Proof.
  intros [Hn Ht] (Ha & Hr & Hp & Hv & Hm). unfold w_fevent. rewrite evkind_wire_str. apply GS_w_object; [discriminate|].
  repeat apply Forall2_cons; [| | | | | | | |apply Forall2_nil].
  - apply member_leaf; [reflexivity|reflexivity|]. apply G_w_string. exact Ha.
  - apply member_leaf; [reflexivity|reflexivity|]. apply G_w_string. exact Hr.
  - apply member_leaf; [reflexivity|reflexivity|]. apply G_w_string. apply evkind_str_utf8.
  - apply member_leaf; [reflexivity|reflexivity|]. apply G_w_num. exact Hn.
  - apply member_leaf; [reflexivity|reflexivity|]. apply G_w_string. exact Hp.
  - apply member_leaf; [reflexivity|reflexivity|]. apply G_w_string. exact Hv.
  - apply member_leaf; [reflexivity|reflexivity|]. apply G_w_num. exact Ht.
  - apply member_leaf; [reflexivity|reflexivity|]. apply G_w_ostring. exact Hm.
Qed.

Lemma GSE_w_fevents indent : forall q, q <> [] -> Forall fevent_in_range q -> Forall fevent_utf8 q ->
  forall n, (List.length q <= n)%nat ->
  GSE (repeat ("0"%string, event_schema) n) (map json_of_fevent q) (w_elems indent (map (w_fevent indent) q)).
Proof.
  induction q as [|e q IH]; intros Hne HR HU n Hn; [contradiction|].
  inversion HR as [|? ? Hr HR']; subst. inversion HU as [|? ? Hu HU']; subst.
  pose proof (GS_w_fevent indent e Hr Hu) as He. cbn [List.length] in Hn.
  destruct q as [|e' q'].
  - cbn [map w_elems]. apply GSE_last; [|apply WS_nl]. rewrite hd_schema_repeat by lia. exact He.
  - specialize (IH ltac:(discriminate) HR' HU' (pred n)). cbn [map] in *. cbn [w_elems].
    apply GSE_cons; auto using WSnil, WS_nl.
    + rewrite hd_schema_repeat by lia. exact He.
    + rewrite tl_repeat. apply IH. cbn [List.length] in *. lia.
Qed.

Lemma GS_w_fevent_vec q n : Forall fevent_in_range q -> Forall fevent_utf8 q -> (List.length q <= n)%nat ->
  GS (vec_schema n event_schema) (JArr (map json_of_fevent q)) (w_array 1 (map (w_fevent 2) q)).
Proof.
  intros HR HU Hn. destruct q as [|e q].
  - unfold vec_schema. cbn [map w_array]. apply GS_arr0. apply WSnil.
  - unfold vec_schema, w_array. cbn [map]. apply GS_arr; [apply WS_nl|].
    apply (GSE_w_fevents 2 (e :: q)); [discriminate|exact HR|exact HU|exact Hn].
Qed.

Lemma GS_w_fstate r q n : utf8_valid (bytes_of r) = true -> Forall fevent_in_range q -> Forall fevent_utf8 q ->
  (List.length q <= n)%nat -> GS (sstate_schema n) (json_of_fstate r q) (w_fstate r q).
Proof.
  intros Hr HR HU Hn. apply GS_w_object; [discriminate|].
  repeat apply Forall2_cons; [| |apply Forall2_nil].
  - apply member_leaf; [reflexivity|reflexivity|]. apply G_w_string. exact Hr.
  - eapply member_known; [reflexivity|reflexivity|]. apply GS_w_fevent_vec; assumption.
Qed.

Theorem written_sstate_is_read_back r q :
  utf8_valid (bytes_of r) = true -> Forall fevent_in_range q -> Forall fevent_utf8 q ->
  sj_of_file (w_fstate r q) = JOk {| rel := r; evq := map event_of_fevent q |}.
Proof.
  intros Hr HR HU.
  set (n := (List.length (w_fstate r q) + List.length q)%nat).
  rewrite <- (sj_of_file_width n (w_fstate r q)) by (unfold n; lia).
  rewrite <- (app_nil_r (w_fstate r q)).
  apply (spelled_state_is_read n r q [] (w_fstate r q) [] HR); [|apply WSnil|apply WSnil].
  apply GS_w_fstate; try assumption. unfold n. lia.
Qed.

Lemma ends_app {A} (a l : list A) c : (exists y, l = y ++ [c]) -> exists y, a ++ l = y ++ [c].
Proof. intros (y & ->). exists (a ++ y). apply app_assoc. Qed.

Lemma w_members_last indent ms : exists y, w_members indent ms = y ++ [125].
Proof.
  induction ms as [|[k v] ms IH]; [exists []; reflexivity|].
  (* past the key and the empty white space after it, the colon, the blank and the value *)
  destruct ms as [|m ms']; cbn [w_members]; do 2 apply ends_app; apply (ends_app [58]); do 2 apply ends_app.
  - apply ends_app. exists []. reflexivity.
  - apply ends_app, (ends_app [44]), ends_app. exact IH.
Qed.

Lemma w_object_shape indent ms :
  (exists x, skip_ws (w_object indent ms) = 123 :: x) /\ (exists y, w_object indent ms = y ++ [125]).
Proof.
  unfold w_object. split.
  - cbn [skip_ws]. assert (E : is_ws 123 = false) by reflexivity. rewrite E. eauto.
  - apply (ends_app [123]), ends_app, w_members_last.
Qed.

Theorem state_has_a_file s : pstate_in_range s -> pstate_utf8 s ->
  exists P, pstate_of_body P = Some s /\ (exists x, skip_ws P = 123 :: x) /\ (exists y, P = y ++ [125]).
Proof. intros Hr Hu. exists (w_pstate s). split; [apply w_pstate_is_read; assumption|apply w_object_shape]. Qed.

Theorem sj_state_has_a_file r q :
  utf8_valid (bytes_of r) = true -> Forall fevent_in_range q -> Forall fevent_utf8 q ->
  exists P, sj_of_file P = JOk {| rel := r; evq := map event_of_fevent q |} /\
            (exists x, skip_ws P = 123 :: x) /\ (exists y, P = y ++ [125]).
Proof.
  intros Hr HR HU. exists (w_fstate r q). split; [apply written_sstate_is_read_back; assumption|apply w_object_shape].
Qed.

Theorem torn_written_pstate s p r : pstate_in_range s -> pstate_utf8 s ->
  w_pstate s = p ++ r -> r <> [] -> pj_of_file p = JGarbage.
Proof.
  intros Hr Hu E Hne.
  exact (torn_state_file_is_garbage (w_pstate s) p r s (w_pstate_is_read s Hr Hu) E Hne
           (proj1 (w_object_shape _ _)) (proj2 (w_object_shape _ _))).
Qed.

Theorem torn_written_sstate rl q p r :
  utf8_valid (bytes_of rl) = true -> Forall fevent_in_range q -> Forall fevent_utf8 q ->
  w_fstate rl q = p ++ r -> r <> [] -> sj_of_file p = JGarbage.
Proof.
  intros Hr HR HU E Hne.
  exact (torn_state_json (w_fstate rl q) p r _ (written_sstate_is_read_back rl q Hr HR HU) E Hne
           (proj1 (w_object_shape _ _)) (proj2 (w_object_shape _ _))).
Qed.

Lemma patch_has_a_sentence p : p_num p < two64 -> patch_utf8 p -> exists b, GS patch_schema (json_of_patch p) b.
Proof.
  intros Hn (Hh & Hu & Hs). eexists.
  apply (GS_w_object _ 0 _ [("number"%string, w_num (p_num p)); ("hash"%string, w_string (p_hash p));
                             ("download_url"%string, w_string (p_url p)); ("hash_signature"%string, w_ostring (p_sig p))]);
    [discriminate|].
  repeat apply Forall2_cons; [| | | |apply Forall2_nil].
  - apply member_leaf; [reflexivity|reflexivity|]. apply G_w_num. exact Hn.
  - apply member_leaf; [reflexivity|reflexivity|]. apply G_w_string. exact Hh.
  - apply member_leaf; [reflexivity|reflexivity|]. apply G_w_string. exact Hu.
  - apply member_leaf; [reflexivity|reflexivity|]. apply G_w_ostring. exact Hs.
Qed.

Theorem answer_has_a_sentence r : resp_in_range r -> resp_utf8 r -> exists b, GS resp_schema (json_of_resp r) b.
Proof.
  intros [Hp Hl] Hu.
  assert (Hav : exists ab, G (JBool (r_avail r)) ab) by (destruct (r_avail r); eexists; constructor).
  assert (Hpt : exists pb, GS patch_schema (match r_patch r with Some p => json_of_patch p | None => JNull end) pb).
  { unfold resp_utf8 in Hu. destruct (r_patch r) as [p|]; [|eexists; apply GS_null].
    apply patch_has_a_sentence; [apply Hp; reflexivity|exact Hu]. }
  assert (Hrb : exists rb, G (match r_rb r with Some l => JArr (map (fun n => JNum (JInt false n)) l) | None => JNull end) rb).
  { destruct (r_rb r) as [l|]; eexists; [apply G_w_nums, Hl; reflexivity|constructor]. }
  destruct Hav as (ab & Hab), Hpt as (pb & Hpb), Hrb as (rb & Hrbb). eexists.
  apply (GS_w_object _ 0 _ [("patch_available"%string, ab); ("patch"%string, pb); ("rolled_back_patch_numbers"%string, rb)]);
    [discriminate|].
  repeat apply Forall2_cons; [| | |apply Forall2_nil].
  - apply member_leaf; [reflexivity|reflexivity|exact Hab].
  - eapply member_known; [reflexivity|reflexivity|exact Hpb].
  - apply member_leaf; [reflexivity|reflexivity|exact Hrbb].
Qed.

Theorem every_answer_has_a_body r : resp_in_range r -> resp_utf8 r -> exists b, resp_of_body b = Some r.
Proof.
  intros Hr Hu. destruct (answer_has_a_sentence r Hr Hu) as (b & Hb). exists ([] ++ b ++ []). rewrite <- (resp_roundtrip r Hr).
  exact (body_reader_spelled resp_schema resp_of_json _ b [] [] Hb WSnil WSnil).
Qed.
