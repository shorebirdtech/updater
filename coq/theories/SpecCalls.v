(* The refinement of SpecRefine.v lifted from PatchManager functions to the critical sections
   and the composite calls (check, update) of updater.rs, i.e. to what the C API runs.  The relation is taken
   on the disk as every critical section sees it (normalised for the running release), so it holds from any
   disk: a disk of another release, or with an unreadable state.json, is related to the empty abstract state. *)
From UV Require Import Base Model Sections Inv Frame Spec SpecRefine.

Section Calls.
Variable sha : bytes -> bytes.
Variable sigok : string -> string -> string -> bool.
Variable zdec : bytes -> bytes.
Variable base : bytes.

Notation R := (R sha sigok).
Notation cs_next := (cs_next sha sigok).
Notation cs_start := (cs_start sha sigok).
Notation cs_failure := (cs_failure sha sigok).
Notation cs_init_recover := (cs_init_recover sha sigok).
Notation cs_rollback := (cs_rollback sha sigok).
Notation should_install := (should_install sha sigok).
Notation do_check := (do_check sha sigok).
Notation do_update := (do_update sha sigok zdec base).
Notation rolled := (rolled sha sigok).
Notation gate := (gate sha zdec base).

Definition Rc (c : cfg) (d : disk) (a : ast) : Prop :=
  R (c_key c) (norm c d) (load_p (norm c d)) a.

Lemma Rc_release_change c d has :
  ~ stable (c_rel c) d ->
  Rc c d {| a_sel := None; a_good := None; a_boot := None; a_ban := []; a_has := has |}.
Proof.
  intros NS. unfold Rc. destruct (norm_cases c d) as [E|E]; rewrite E.
  - exfalso. apply NS. rewrite <- E. apply norm_stable.
  - apply R_pempty.
Qed.

Lemma R_set_sj key d s a v : R key d s a -> R key (set_sj d v) s a.
Proof. intros (H1 & H2 & H3 & H4 & H5 & H6). repeat split; auto. Qed.

Definition a_current (a : ast) : option N := match a_boot a with Some b => Some b | None => a_good a end.

Definition a_should_install (a : ast) (n : N) : ast * should :=
  if inb n (a_ban a) then (a, ShBad)
  else let '(a', r) := a_query a in
       match r with
       | Some k => if N.eqb k n then (a', ShAlready) else (a', ShOk)
       | None => (a', ShOk)
       end.

Definition a_check (a : ast) (r : option resp) : ast * bool :=
  match r with
  | None => (a, false)
  | Some rs =>
      let a1 := match r_rb rs with Some l => a_rollback a l | None => a end in
      match r_patch rs with
      | None => (a1, false)
      | Some p => let '(a2, sh) := a_should_install a1 (p_num p) in
                  (a2, match sh with ShOk => true | _ => false end)
      end
  end.

(* [verified]: the download arrived, inflated against the base, and matched the advertised hash *)
Definition a_update (a : ast) (r : option resp) (verified : bool) : ast * ustatus :=
  match r with
  | None => (a, UError)
  | Some rs =>
      let a2 := match r_rb rs with Some l => a_rollback a l | None => a end in
      if negb (r_avail rs) then (a2, UNoUpdate)
      else match r_patch rs with
           | None => (a2, UError)
           | Some p =>
               let '(a3, sh) := a_should_install a2 (p_num p) in
               match sh with
               | ShBad => (a3, UBadPatch)
               | ShAlready => (a3, UNoUpdate)
               | ShOk =>
                   if verified
                   then if inb (p_num p) (a_ban a3) then (a3, UBadPatch)
                        else (a_install a3 (p_num p), UInstalled)
                   else (a3, UError)
               end
           end
  end.

Definition a_rolled (a : ast) (rs : resp) : ast :=
  match r_rb rs with Some l => a_rollback a l | None => a end.

Lemma a_check_rolled a rs :
  a_check a (Some rs) =
  match r_patch rs with
  | None => (a_rolled a rs, false)
  | Some p => let '(a2, sh) := a_should_install (a_rolled a rs) (p_num p) in
              (a2, match sh with ShOk => true | _ => false end)
  end.
Proof. reflexivity. Qed.

Lemma a_update_patch a rs p v :
  r_avail rs = true -> r_patch rs = Some p ->
  let a3 := fst (a_should_install (a_rolled a rs) (p_num p)) in
  a_update a (Some rs) v =
  match snd (a_should_install (a_rolled a rs) (p_num p)) with
  | ShBad => (a3, UBadPatch)
  | ShAlready => (a3, UNoUpdate)
  | ShOk => if v
            then if inb (p_num p) (a_ban a3) then (a3, UBadPatch) else (a_install a3 (p_num p), UInstalled)
            else (a3, UError)
  end.
Proof.
  intros Ea Ep. unfold a_update, a_rolled. rewrite Ea, Ep. cbv zeta.
  destruct (a_should_install _ (p_num p)). reflexivity.
Qed.

Lemma Rc_sec c k d a' :
  R (c_key c) (fst (sec_pm sha sigok (c_key c) k (norm c d) (load_p (norm c d))))
    (snd (sec_pm sha sigok (c_key c) k (norm c d) (load_p (norm c d)))) a' ->
  Rc c (sec_disk sha sigok c k d) a'.
Proof.
  intros H. unfold Rc. rewrite (norm_id c _ (sec_stable sha sigok c k d)).
  apply (sec_lift sha sigok (fun x s => R (c_key c) x s a')); [intros; apply R_set_sj; assumption|exact H].
Qed.

(* the sections that only read: the ban query, the current patch, the copy of the event queue *)
Lemma Rc_norm c d a : Rc c d a -> Rc c (norm c d) a.
Proof. intros H. apply (Rc_sec c SRead), H. Qed.

Lemma Rc_next c d a :
  Rc c d a -> Rc c (fst (cs_next c d)) (fst (a_query a)) /\ snd (cs_next c d) = snd (a_query a).
Proof.
  intros H. destruct (R_next_boot sha sigok (c_key c) _ _ a H) as [H1 H2]. split.
  - apply (Rc_sec c SNext). exact H1.
  - rewrite cs_next_loaded in H2. exact H2.
Qed.

Lemma Rc_current c d a :
  Rc c d a -> Rc c (fst (cs_current c d)) a /\ snd (cs_current c d) = a_current a.
Proof.
  intros H. split; [apply Rc_norm, H|].
  unfold Model.cs_current, a_current. cbn [fst snd].
  destruct H as (_ & Hg & Hb & _). rewrite Hb, Hg. destruct (cb (load_p (norm c d))); reflexivity.
Qed.

Lemma Rc_start c d a : Rc c d a -> Rc c (cs_start c d) (a_start a).
Proof. intros H. apply (Rc_sec c SStart), (R_start sha sigok), H. Qed.

Lemma Rc_success c d a : Rc c d a -> Rc c (fst (cs_success c d)) (a_success a).
Proof. intros H. apply (Rc_sec c SSuccess), R_success, H. Qed.

(* a failure report and crash detection differ only in the message they queue *)
Lemma Rc_fail c m d a : Rc c d a -> Rc c (fail_disk sha sigok c m d) (a_failure a).
Proof.
  intros H. apply (Rc_sec c (SFail m)). exact (proj1 (pm_refines sha sigok (c_key c) _ _ a PFailure H I)).
Qed.

Lemma Rc_failure c d a : Rc c d a -> Rc c (fst (cs_failure c d)) (a_failure a).
Proof. rewrite cs_failure_disk. apply Rc_fail. Qed.

Lemma Rc_init_recover c d a : Rc c d a -> Rc c (cs_init_recover c d) (a_failure a).
Proof. rewrite cs_init_recover_disk. apply Rc_fail. Qed.

Lemma Rc_rollback c d a l : Rc c d a -> Rc c (cs_rollback c d l) (a_rollback a l).
Proof. intros H. apply (Rc_sec c (SRollback l)), R_rollback, H. Qed.

Lemma Rc_clear c d a : Rc c d a -> Rc c (cs_clear_events c d) a.
Proof. intros H. apply (Rc_sec c SClear), H. Qed.

Lemma Rc_should_install c d a n :
  Rc c d a ->
  Rc c (fst (should_install c d n)) (fst (a_should_install a n)) /\
  snd (should_install c d n) = snd (a_should_install a n).
Proof.
  intros H. pose proof (Rc_norm c d a H) as H0.
  unfold Model.should_install, a_should_install, cs_is_bad.
  replace (a_ban a) with (bad (load_p (norm c d))) by (symmetry; apply H).
  destruct (inb n (bad (load_p (norm c d)))); [split; [exact H0|reflexivity]|].
  destruct (Rc_next c (norm c d) a H0) as [H1 H2].
  destruct (cs_next c (norm c d)) as [d2 r]. destruct (a_query a) as [a' r']. cbn [fst snd] in *. subst r'.
  destruct r as [k|]; [destruct (N.eqb k n)|]; split; auto.
Qed.

Lemma Rc_rolled c d a rs :
  Rc c d a -> Rc c (match r_rb rs with Some l => cs_rollback c d l | None => d end) (a_rolled a rs).
Proof. intros H. unfold a_rolled. destruct (r_rb rs); [apply Rc_rollback|]; exact H. Qed.

Lemma Rc_check c d a ch r :
  Rc c d a ->
  Rc c (fst (fst (do_check c d ch r))) (fst (a_check a r)) /\
  snd (fst (do_check c d ch r)) = snd (a_check a r).
Proof.
  intros H. unfold Model.do_check. destruct r as [rs|]; [|auto]. rewrite a_check_rolled.
  pose proof (Rc_rolled c d a rs H) as H1.
  destruct (r_patch rs) as [p|]; [|auto].
  destruct (Rc_should_install c _ _ (p_num p) H1) as [H2 H3].
  destruct (should_install c _ (p_num p)) as [d2 sh]. destruct (a_should_install _ (p_num p)) as [a2 sh'].
  cbn [fst snd] in *. subst sh'. auto.
Qed.

Definition pre_install_disk (c : cfg) (d : disk) (rs : resp) (p : patch) : disk :=
  let d1 := cs_clear_events c (fst (cs_copy_events c d)) in
  let d2 := match r_rb rs with Some l => cs_rollback c d1 l | None => d1 end in
  norm c (fst (should_install c d2 (p_num p))).

Definition verified (dl : option bytes) (h : string) : bool :=
  match dl with
  | Some b => match inflate zdec base b with Some out => hash_ok sha out h | None => false end
  | None => false
  end.

(* what the environment guarantees when an install happens (as op_ok in SpecRefine.v) *)
Definition install_ok (c : cfg) (d : disk) (r : option resp) (dl : option bytes) : Prop :=
  forall rs p b out, r = Some rs -> r_patch rs = Some p -> dl = Some b -> inflate zdec base b = Some out ->
    let d3 := pre_install_disk c d rs p in
    let new := {| m_num := p_num p; m_size := blen out; m_hash := p_hash p; m_sig := p_sig p |} in
    consistent (load_p d3) new /\ validate sha sigok (c_key c) (put_art d3 (p_num p) out) new = true.

Lemma Rc_install c d a p out :
  Rc c d a ->
  (let new := {| m_num := p_num p; m_size := blen out; m_hash := p_hash p; m_sig := p_sig p |} in
   consistent (load_p (norm c d)) new /\ validate sha sigok (c_key c) (put_art (norm c d) (p_num p) out) new = true) ->
  Rc c (fst (cs_install c d p out))
       (if inb (p_num p) (a_ban a) then a else a_install a (p_num p)) /\
  snd (cs_install c d p out) = if inb (p_num p) (a_ban a) then UBadPatch else UInstalled.
Proof.
  intros H [C V]. assert (Hn : a_ban a = bad (load_p (norm c d))) by apply H. split.
  - apply (Rc_sec c (SInstall p out)). cbn [sec_pm]. rewrite Hn.
    destruct (inb (p_num p) (bad (load_p (norm c d)))); [exact H|]. apply R_add_patch; assumption.
  - unfold Model.cs_install. rewrite Hn. destruct (inb _ _); reflexivity.
Qed.

Lemma verified_gate dl h : verified dl h = if gate dl h then true else false.
Proof.
  unfold verified, gate. destruct dl as [b|]; [|reflexivity].
  destruct (inflate zdec base b) as [out|]; [|reflexivity]. destruct (hash_ok sha out h); reflexivity.
Qed.

Theorem Rc_update c d a ch r dl :
  Rc c d a -> install_ok c d r dl ->
  let v := match r with
           | Some rs => match r_patch rs with Some p => verified dl (p_hash p) | None => false end
           | None => false
           end in
  Rc c (fst (fst (do_update c d ch r dl))) (fst (a_update a r v)) /\
  snd (fst (do_update c d ch r dl)) = snd (a_update a r v).
Proof.
  intros H Hok v.
  assert (H1 : Rc c (cleared c d) a) by (apply Rc_clear, Rc_norm, H).
  assert (H2 : forall rs, Rc c (rolled c d rs) (a_rolled a rs)) by (intros rs; apply Rc_rolled, H1).
  destruct r as [rs|]; [|auto].
  destruct (do_update_answer sha sigok zdec base c d ch rs dl)
    as [Ea|Ea Ep|p sh Ea Ep Es Hsh|p Ea Ep Es Eg|p out Ea Ep Es Eg d3]; cbn [fst snd].
  1-2: unfold a_update; rewrite Ea, ?Ep; split; [apply H2|reflexivity].
  (* a patch is offered: both machines make the two checks, with the same answer *)
  all: rewrite (a_update_patch a rs p v Ea Ep);
    destruct (Rc_should_install c _ _ (p_num p) (H2 rs)) as [H3 H4]; rewrite <- H4, Es.
  - destruct sh; [contradiction Hsh; reflexivity| |]; (split; [exact H3|reflexivity]).
  - unfold v. rewrite Ep, verified_gate, Eg. split; [exact H3|reflexivity].
  - unfold v. rewrite Ep, verified_gate, Eg. apply gate_some in Eg. destruct Eg as (bdl & -> & Ei & _).
    destruct (Rc_install c d3 _ p out H3 (Hok rs p bdl out eq_refl Ep eq_refl Ei)) as [H5 H6]. rewrite H6.
    destruct (inb (p_num p) (a_ban _)); (split; [exact H5|reflexivity]).
Qed.

Definition lifecycle (o : op) : bool :=
  match o with
  | ONextNum | ONextPath | OCurNum | OStart | OSuccess | OFailure | OCheck _ _ | OUpdate _ _ _ => true
  | _ => false
  end.

Definition onum0 (r : option N) : N := match r with Some n => n | None => 0 end.

Definition a_world_step (a : ast) (o : op) (v : bool) : ast * out :=
  match o with
  | ONextNum => let '(a', r) := a_query a in (a', RNum (onum0 r))
  | ONextPath => let '(a', r) := a_query a in (a', RPath r)
  | OCurNum => (a, RNum (onum0 (a_current a)))
  | OStart => (a_start a, RUnit)
  | OSuccess => (a_success a, RUnit)
  | OFailure => (a_failure a, RUnit)
  | OCheck _ r => let '(a', b) := a_check a r in (a', RBool b)
  | OUpdate _ r _ => let '(a', u) := a_update a r v in (a', RStatus (status_code u))
  | _ => (a, RUnit)
  end.

Definition op_verified (o : op) : bool :=
  match o with
  | OUpdate _ (Some rs) dl => match r_patch rs with Some p => verified dl (p_hash p) | None => false end
  | _ => false
  end.

Definition op_install_ok (c : cfg) (d : disk) (o : op) : Prop :=
  match o with OUpdate _ r dl => install_ok c d r dl | _ => True end.

Theorem step_refines (w : world) (c : cfg) (a : ast) (o : op) :
  w_cfg w = Some c -> lifecycle o = true -> Rc c (w_disk w) a -> op_install_ok c (w_disk w) o ->
  let '(w', x, _) := step sha sigok zdec base w o in
  w_cfg w' = Some c /\
  Rc c (w_disk w') (fst (a_world_step a o (op_verified o))) /\
  x = snd (a_world_step a o (op_verified o)).
Proof.
  intros Hc Hl H Hok. unfold Model.step. rewrite Hc.
  destruct o as [relv y pk| | | | | | | | |ch r|ch r dl|g]; try discriminate;
    cbn [a_world_step op_verified op_install_ok] in *.
  1-2: destruct (Rc_next c (w_disk w) a H) as [H1 H2];
    destruct (cs_next c (w_disk w)) as [d' r]; destruct (a_query a) as [a' r']; cbn [fst snd] in *; subst; auto.
  - destruct (Rc_current c (w_disk w) a H) as [H1 H2].
    destruct (cs_current c (w_disk w)) as [d' r]. cbn [fst snd] in *. subst. auto.
  - split; [reflexivity|]. split; [apply Rc_start; exact H|reflexivity].
  - pose proof (Rc_success c (w_disk w) a H) as H1.
    destruct (Model.cs_success c (w_disk w)) as [d' l]. auto.
  - pose proof (Rc_failure c (w_disk w) a H) as H1.
    destruct (cs_failure c (w_disk w)) as [d' b]. auto.
  - destruct (Rc_check c (w_disk w) a ch r H) as [H1 H2].
    destruct (do_check c (w_disk w) ch r) as [[d' b] l]. destruct (a_check a r) as [a' b']. cbn [fst snd] in *. subst. auto.
  - destruct (Rc_update c (w_disk w) a ch r dl H Hok) as [H1 H2]. cbv zeta in H1, H2.
    destruct (do_update c (w_disk w) ch r dl) as [[d' u] l]. destruct (a_update a r _) as [a' u']. cbn [fst snd] in *. subst. auto.
Qed.

Theorem restart_refines (w : world) (c : cfg) (a : ast) relv y :
  cfg_of relv y = Some c -> Rc c (w_disk w) a ->
  let w1 := fst (fst (step sha sigok zdec base w OKill)) in
  let '(w2, x, _) := step sha sigok zdec base w1 (OInit relv y true) in
  w_cfg w2 = Some c /\ Rc c (w_disk w2) (a_failure a) /\ x = RBool true.
Proof.
  intros Hc H. cbn [Model.step fst w_cfg w_disk]. rewrite Hc. cbn [negb w_cfg w_disk].
  split; [reflexivity|]. split; [|reflexivity]. apply Rc_init_recover. exact H.
Qed.

End Calls.
