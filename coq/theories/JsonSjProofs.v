(* Facts about the reading of state.json. *)
From UV Require Import Base Model Json JsonProofs JsonText JsonTextProofs JsonTextSound JsonTextExist JsonSj.
From Coq Require Import ZifyN ZifyBool Lia.
Local Open Scope N_scope.

Theorem fstate_of_body_iff n l s :
  fstate_of_body_n n l = Some s <->
  exists w b w' t, WS w /\ GS (sstate_schema n) t b /\ WS w' /\ l = w ++ b ++ w' /\ fstate_of_json t = Some s.
Proof. exact (body_reader_iff (sstate_schema n) fstate_of_json l s). Qed.

Definition evkind_str (k : evkind) : string :=
  match k with
  | EvInstallSuccess => "__patch_install__"
  | EvInstallFailure => "__patch_install_failure__"
  | EvDownload => "__patch_download__"
  end.
Definition json_of_fevent (e : fevent) : json :=
  JObj [("app_id"%string, JStr (fe_app e)); ("arch"%string, JStr (fe_arch e)); ("type"%string, JStr (evkind_str (fe_kind e)));
        ("patch_number"%string, JNum (JInt false (fe_num e))); ("platform"%string, JStr (fe_platform e));
        ("release_version"%string, JStr (fe_rel e)); ("timestamp"%string, JNum (JInt false (fe_ts e)));
        ("message"%string, json_of_ostring (fe_msg e))].
Definition json_of_fstate (r : string) (q : list fevent) : json :=
  JObj [("release_version"%string, JStr r); ("queued_events"%string, JArr (map json_of_fevent q))].

Definition fevent_in_range (e : fevent) : Prop := fe_num e < two64 /\ fe_ts e < two64.

Lemma as_fevent_roundtrip e : fevent_in_range e -> as_fevent (json_of_fevent e) = Some e.
Proof.
  intros [H1 H2]. destruct e as [ap ar k n pl r t m]. cbn [fe_num fe_ts] in *.
  assert (E1 : (n <? two64) = true) by lia. assert (E2 : (t <? two64) = true) by lia.
  destruct k; destruct m as [m|]; cbv -[N.ltb two64]; rewrite E1, E2; reflexivity.
Qed.

Lemma all_fevents_roundtrip q : Forall fevent_in_range q -> all_fevents (map json_of_fevent q) = Some q.
Proof.
  induction 1 as [|e q He _ IH]; [reflexivity|]. cbn [map all_fevents].
  rewrite (as_fevent_roundtrip e He), IH. reflexivity.
Qed.

Theorem fstate_roundtrip r q : Forall fevent_in_range q -> fstate_of_json (json_of_fstate r q) = Some (r, q).
Proof.
  intros H. cbv -[all_fevents map json_of_fevent]. rewrite (all_fevents_roundtrip q H). reflexivity.
Qed.

Theorem spelled_state_is_read n r q w b w' :
  Forall fevent_in_range q -> GS (sstate_schema n) (json_of_fstate r q) b -> WS w -> WS w' ->
  sj_of_file_n n (w ++ b ++ w') = JOk {| rel := r; evq := map event_of_fevent q |}.
Proof.
  intros Hq Hg Hw Hw'. unfold sj_of_file_n.
  rewrite (body_reader_spelled _ fstate_of_json _ b w w' Hg Hw Hw' : fstate_of_body_n n _ = _), (fstate_roundtrip r q Hq).
  reflexivity.
Qed.

Definition msg_text (n : N) (m : evmsg) : option string :=
  match m with
  | MsgNone => None
  | MsgInit => Some (msg_init n)
  | MsgEngine => Some (msg_engine n)
  | MsgOther s => Some s
  end.
Definition fevent_of_event (arch plat : string) (ts : N) (e : event) : fevent :=
  {| fe_app := e_app e; fe_arch := arch; fe_kind := e_kind e; fe_num := e_num e; fe_platform := plat; fe_rel := e_rel e;
     fe_ts := ts; fe_msg := msg_text (e_num e) (e_msg e) |}.
(* MsgOther stands for a text that is neither of the two the library writes *)
Definition msg_canonical (e : event) : Prop :=
  match e_msg e with
  | MsgOther s => String.eqb s (msg_init (e_num e)) = false /\ String.eqb s (msg_engine (e_num e)) = false
  | _ => True
  end.

Lemma msg_engine_not_init n : String.eqb (msg_engine n) (msg_init n) = false.
Proof. unfold msg_engine, msg_init. cbn [append String.eqb]. reflexivity. Qed.

Lemma event_of_fevent_of_event a p t e : msg_canonical e -> event_of_fevent (fevent_of_event a p t e) = e.
Proof.
  destruct e as [k n ap r m]. unfold msg_canonical, event_of_fevent, fevent_of_event. cbn [e_msg e_num e_kind e_app e_rel fe_kind fe_num fe_app fe_rel fe_msg].
  intros H. f_equal. destruct m as [| | |s]; cbn [msg_text evmsg_of].
  - reflexivity.
  - rewrite String.eqb_refl. reflexivity.
  - rewrite msg_engine_not_init, String.eqb_refl. reflexivity.
  - destruct H as [H1 H2]. rewrite H1, H2. reflexivity.
Qed.

Lemma mk_event_canonical c k n m : (forall s, m <> MsgOther s) -> msg_canonical (mk_event c k n m).
Proof. intros H. unfold msg_canonical, mk_event. cbn [e_msg]. destruct m; try exact I. exfalso. eapply H. reflexivity. Qed.

Theorem queue_is_read_back a p ts (q : list event) :
  Forall msg_canonical q -> map event_of_fevent (map (fun e => fevent_of_event a p (ts e) e) q) = q.
Proof.
  induction 1 as [|e q He _ IH]; [reflexivity|]. cbn [map]. rewrite IH, (event_of_fevent_of_event a p (ts e) e He). reflexivity.
Qed.

(* non-vacuity and the edges: a document with a lenient-only unknown member inside an event and a positional event is
   read; a vector given as an object, an unknown event type, a missing required member are not; a missing message is None *)
Example sj_examples :
  sj_of_file (bytes_of "{""release_version"":""1.0.0+1"",""queued_events"":[{""app_id"":""a"",""arch"":""x86_64"",""type"":""__patch_install_failure__"",""patch_number"":12,""platform"":""linux"",""release_version"":""1.0.0+1"",""timestamp"":1700000000,""message"":""Patch 12 was marked currently_booting in init"",""zz"":""\ud800""},[""a"",""x"",""__patch_download__"",3,""linux"",""r"",5,null]]}")
    = JOk {| rel := "1.0.0+1"; evq := [ {| e_kind := EvInstallFailure; e_num := 12; e_app := "a"; e_rel := "1.0.0+1"; e_msg := MsgInit |};
                                          {| e_kind := EvDownload; e_num := 3; e_app := "a"; e_rel := "r"; e_msg := MsgNone |} ] |} /\
  sj_of_file (bytes_of "{""release_version"":""1"",""queued_events"":{}}") = JGarbage /\
  sj_of_file (bytes_of "{""release_version"":""1""}") = JGarbage /\
  sj_of_file (bytes_of "{""release_version"":""1"",""queued_events"":[],""release_version"":""1""}") = JGarbage /\
  sj_of_file (bytes_of "{""release_version"":""1"",""queued_events"":[{""app_id"":""a"",""arch"":""x86_64"",""type"":""bogus"",""patch_number"":12,""platform"":""linux"",""release_version"":""1"",""timestamp"":1,""message"":null}]}") = JGarbage /\
  sj_of_file (bytes_of "{""release_version"":""1"",""queued_events"":[{""app_id"":""a"",""arch"":""x86_64"",""type"":""__patch_install__"",""patch_number"":12,""platform"":""linux"",""release_version"":""1"",""timestamp"":1}]}")
    = JOk {| rel := "1"; evq := [ {| e_kind := EvInstallSuccess; e_num := 12; e_app := "a"; e_rel := "1"; e_msg := MsgNone |} ] |} /\
  sj_of_file (bytes_of "{""release_version"": ""1.0.0+1"", ""queued_events"": [") = JGarbage /\
  sj_of_file [] = JGarbage.
Proof. vm_compute. repeat split. Qed.
