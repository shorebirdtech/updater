(* C16: the bipatch Reader driven through read(buf) with ANY sequence of non-empty buffer
   sizes (and any size of its internal scratch buffer) produces exactly what the one-shot semantics
   [apply_patch] produces, error for error. *)
From UV Require Import Base Codec CodecProofs.

Lemma take_N_length n p a r :
  take_N n p = Some (a, r) -> List.length p = (N.to_nat n + List.length r)%nat.
Proof. intros H. apply take_N_some in H. destruct H as [-> H]. rewrite app_length. unfold blen in H. lia. Qed.

Lemma read_old_len old pos n o : read_old old pos n = Some o -> blen o = n.
Proof.
  rewrite read_old_char. destruct (n =? 0) eqn:E0.
  - intros H. injection H as <-. apply N.eqb_eq in E0. symmetry. exact E0.
  - destruct (pos <? 0)%Z eqn:E1; [discriminate|]. destruct (_ <? _ + _)%Z eqn:E2; [discriminate|].
    intros H. injection H as <-. apply blen_firstn. rewrite blen_skipn. lia.
Qed.

Lemma read_old_split old pos n m : 0 < n ->
  read_old old pos (n + m) =
  match read_old old pos n with
  | Some a => match read_old old (pos + Z.of_N n) m with Some b => Some (a ++ b) | None => None end
  | None => None
  end.
Proof.
  intros Hn. rewrite !read_old_char, N2Nat.inj_add, firstn_add, <- skipn_add.
  assert (E0 : (n + m =? 0) = false) by lia. assert (E0' : (n =? 0) = false) by lia. rewrite E0, E0'.
  destruct (pos <? 0)%Z eqn:E1; [reflexivity|].
  destruct (m =? 0) eqn:Em.
  - assert (m = 0) by lia. subst m. rewrite N.add_0_r. destruct (_ <? _ + _)%Z; reflexivity.
  - assert (E3 : (pos + Z.of_N n <? 0)%Z = false) by lia. rewrite E3, <- Z.add_assoc, <- N2Z.inj_add.
    replace (Z.to_nat (pos + Z.of_N n)) with (Z.to_nat pos + N.to_nat n)%nat by lia.
    destruct (_ <? pos + Z.of_N n)%Z eqn:E2; destruct (_ <? pos + Z.of_N (n + m))%Z eqn:E4;
      try lia; reflexivity.
Qed.

Lemma add_bytes_app : forall (a1 b1 a2 b2 : bytes),
  blen a1 = blen b1 -> add_bytes (a1 ++ a2) (b1 ++ b2) = add_bytes a1 b1 ++ add_bytes a2 b2.
Proof.
  unfold blen. induction a1 as [|x a1 IH]; intros [|y b1] a2 b2 H; cbn in *; try lia; auto.
  rewrite IH by lia. reflexivity.
Qed.

Definition eats {A} (l : bytes) (r : vres A) : Prop :=
  match r with VOk _ rest => (List.length rest < List.length l)%nat | _ => True end.

Lemma dec_raw_eats i : forall l, eats l (dec_raw i l).
Proof.
  induction i as [|i IH]; intros [|b l]; cbn [dec_raw eats]; auto.
  destruct (b <? 128); [cbn [eats List.length]; lia|].
  specialize (IH l). destruct (dec_raw i l); cbn [eats List.length] in *; lia.
Qed.

Lemma dec_u_eats l : eats l (dec_u l).
Proof. unfold dec_u. pose proof (dec_raw_eats 10 l) as H. destruct (dec_raw 10 l); exact H. Qed.

Lemma dec_s_eats l : eats l (dec_s l).
Proof. unfold dec_s. pose proof (dec_u_eats l) as H. destruct (dec_u l); exact H. Qed.

Section Den.
Variable old : bytes.

Definition den_copy (rec : bytes -> Z -> option bytes) (c : N) (p : bytes) (pos : Z) : option bytes :=
  match take_N c p with
  | Some (cp, p1) =>
      match dec_s p1 with
      | VOk sk p2 => if bad_pos (pos + sk) then None else omap (app cp) (rec p2 (pos + sk)%Z)
      | _ => None
      end
  | None => None
  end.

Definition den_add (rec : bytes -> Z -> option bytes) (k : N) (p : bytes) (pos : Z) : option bytes :=
  match read_old old pos k, take_N k p with
  | Some o, Some (dif, p1) =>
      match dec_u p1 with
      | VOk c p2 => omap (app (add_bytes o dif)) (den_copy rec c p2 (pos + Z.of_N k)%Z)
      | _ => None
      end
  | _, _ => None
  end.

Fixpoint den_rec (f : nat) (p : bytes) (pos : Z) : option bytes :=
  match f with
  | O => None
  | S f' =>
      match dec_u p with
      | VEof => Some []
      | VInvalid => None
      | VOk k p1 => den_add (den_rec f') k p1 pos
      end
  end.

(* the denotation of a reader state: everything the one-shot reader would still produce from it, None if it
   would fail.  [f] is the fuel of [apply_records]: the number of records that may still begin. *)
Definition den (f : nat) (s : rd) : option bytes :=
  match r_st s with
  | RFinal => Some []
  | RInit => den_rec f (r_p s) (r_pos s)
  | RAdd k => den_add (den_rec f) k (r_p s) (r_pos s)
  | RCopy k => den_copy (den_rec f) k (r_p s) (r_pos s)
  end.

(* The fuel suffices when it exceeds the patch bytes left, since every record eats at least one.  In RInit the
   next record begins at once and takes its unit of fuel, hence the strict bound; from RAdd and RCopy a varint
   (the copy length, the seek) is eaten before the next record begins. *)
Definition fuel_ok (f : nat) (s : rd) : Prop :=
  match r_st s with
  | RFinal => True
  | RInit => (List.length (r_p s) < f)%nat
  | _ => (List.length (r_p s) <= f)%nat
  end.

(* the turns of [chunked] a state still needs: every turn eats a patch byte, except the one into RFinal *)
Definition rank (s : rd) : nat :=
  match r_st s with RFinal => 1%nat | _ => (List.length (r_p s) + 2)%nat end.

Lemma omap_app (a b : bytes) x : omap (app (a ++ b)) x = omap (app a) (omap (app b) x).
Proof. destruct x; cbn; [rewrite app_assoc|]; reflexivity. Qed.

Lemma den_add_split rec k p pos n m : 0 < n -> k = n + m ->
  den_add rec k p pos =
  match read_old old pos n, take_N n p with
  | Some o, Some (d, p1) => omap (app (add_bytes o d)) (den_add rec m p1 (pos + Z.of_N n)%Z)
  | _, _ => None
  end.
Proof.
  intros Hn ->. unfold den_add. rewrite read_old_split, take_N_split by exact Hn.
  destruct (read_old old pos n) as [o1|] eqn:R1; [|reflexivity].
  destruct (take_N n p) as [[d1 p1]|] eqn:T1.
  2:{ destruct (read_old old (pos + Z.of_N n) m); reflexivity. }
  destruct (read_old old (pos + Z.of_N n) m) as [o2|] eqn:R2; [|reflexivity].
  destruct (take_N m p1) as [[d2 p2]|] eqn:T2; [|reflexivity].
  destruct (dec_u p2) as [c p3| |]; try reflexivity.
  rewrite add_bytes_app.
  2:{ apply read_old_len in R1. apply take_N_some in T1. destruct T1 as [_ T1]. congruence. }
  rewrite omap_app. replace (pos + Z.of_N n + Z.of_N m)%Z with (pos + Z.of_N (n + m))%Z by lia.
  reflexivity.
Qed.

Lemma den_copy_split rec k p pos n m : k = n + m ->
  den_copy rec k p pos =
  match take_N n p with
  | Some (c1, p1) => omap (app c1) (den_copy rec m p1 pos)
  | None => None
  end.
Proof.
  intros ->. unfold den_copy. rewrite take_N_split.
  destruct (take_N n p) as [[c1 p1]|]; [|reflexivity].
  destruct (take_N m p1) as [[c2 p2]|]; [|reflexivity].
  destruct (dec_s p2) as [sk p3| |]; try reflexivity.
  destruct (bad_pos (pos + sk)); [reflexivity|]. apply omap_app.
Qed.

Variable cap : N.
Variable sizes : nat -> N.
Hypothesis cap_pos : 0 < cap.
Hypothesis sizes_pos : forall j, 0 < sizes j.

Lemma iter_den f s b : 0 < b -> fuel_ok f s -> r_st s <> RFinal ->
  match iter old cap s b with
  | None => den f s = None
  | Some (o, s') =>
      exists f', fuel_ok f' s' /\ (rank s' < rank s)%nat /\ den f s = omap (app o) (den f' s')
  end.
Proof.
  intros Hb Hf Hnf. destruct s as [[|k|k|] p pos]; [| | |contradiction];
    unfold iter, den, fuel_ok, rank in *; cbn [r_st r_p r_pos] in *.
  - (* RInit: the add length is read, on the unit of fuel that [fuel_ok] reserves *)
    destruct f as [|f]; [lia|]. cbn [den_rec].
    pose proof (dec_u_eats p) as E. destruct (dec_u p) as [k p1| |]; cbn [eats] in E.
    + exists f. cbn [r_st r_p r_pos]. repeat split; try lia. destruct (den_add _ _ _ _); reflexivity.
    + exists f. cbn [r_st]. repeat split; lia.
    + reflexivity.
  - (* RAdd k *)
    set (n := N.min (N.min k b) cap). destruct (k =? n) eqn:Ek.
    + (* the whole add block fits *)
      replace n with k by lia. unfold den_add.
      destruct (read_old old pos k) as [o|]; [|reflexivity].
      destruct (take_N k p) as [[d p1]|] eqn:T; [|reflexivity]. apply take_N_length in T.
      pose proof (dec_u_eats p1) as E. destruct (dec_u p1) as [c p2| |]; cbn [eats] in E; try reflexivity.
      exists f. cbn [r_st r_p r_pos]. repeat split; lia.
    + (* a strict part of it *)
      rewrite (den_add_split _ k p pos n (k - n)) by lia.
      destruct (read_old old pos n) as [o|]; [|reflexivity].
      destruct (take_N n p) as [[d p1]|] eqn:T; [|reflexivity]. apply take_N_length in T.
      exists f. cbn [r_st r_p r_pos]. repeat split; lia.
  - (* RCopy k, likewise *)
    set (n := N.min k b). destruct (k =? n) eqn:Ek.
    + replace n with k by lia. unfold den_copy.
      destruct (take_N k p) as [[cp p1]|] eqn:T; [|reflexivity]. apply take_N_length in T.
      pose proof (dec_s_eats p1) as E. destruct (dec_s p1) as [sk p2| |]; cbn [eats] in E; try reflexivity.
      destruct (bad_pos (pos + sk)); [reflexivity|].
      exists f. cbn [r_st r_p r_pos]. repeat split; lia.
    + rewrite (den_copy_split _ k p pos n (k - n)) by lia.
      destruct (take_N n p) as [[c1 p1]|] eqn:T; [|reflexivity]. apply take_N_length in T.
      exists f. cbn [r_st r_p r_pos]. repeat split; lia.
Qed.

Lemma chunked_den : forall fc s b i fd,
  (rank s <= fc)%nat -> fuel_ok fd s -> chunked fc old cap sizes s b i = den fd s.
Proof.
  induction fc as [|fc IH]; intros s b i fd Hfc Hfd; [unfold rank in Hfc; destruct (r_st s); lia|].
  cbn [chunked]. set (b' := if b =? 0 then sizes (S i) else b).
  assert (Hb : 0 < b') by (unfold b'; destruct (b =? 0) eqn:E; [apply sizes_pos|lia]).
  pose proof (iter_den fd s b' Hb Hfd) as Hs.
  destruct (r_st s) eqn:Est; [| | |unfold den; rewrite Est; reflexivity].
  (* the three other states take the same turn *)
  all: specialize (Hs ltac:(discriminate)).
  all: destruct (iter old cap s b') as [[o s']|]; [|congruence].
  all: destruct Hs as (f' & Hf' & Hr & ->).
  all: rewrite (IH s' _ _ f') by (assumption || lia); reflexivity.
Qed.

Lemma apply_records_den : forall f pos p acc,
  apply_records f old pos p acc = omap (app acc) (den_rec f p pos).
Proof.
  induction f as [|f IH]; intros pos p acc; cbn [apply_records den_rec]; [reflexivity|].
  destruct (dec_u p) as [k p1| |]; cbn [omap]; try reflexivity; [|rewrite app_nil_r; reflexivity].
  unfold den_add.
  destruct (read_old old pos k) as [o|]; [|reflexivity].
  destruct (take_N k p1) as [[d p2]|]; [|reflexivity].
  destruct (dec_u p2) as [c p3| |]; try reflexivity.
  unfold den_copy.
  destruct (take_N c p3) as [[cp p4]|]; [|reflexivity].
  destruct (dec_s p4) as [sk p5| |]; try reflexivity.
  unfold bad_pos. destruct ((pos + Z.of_N k + sk <? 0)%Z || (two63 <=? pos + Z.of_N k + sk)%Z); [reflexivity|].
  rewrite IH. destruct (den_rec f p5 (pos + Z.of_N k + sk)) as [r|]; cbn [omap]; [|reflexivity].
  rewrite <- !app_assoc. reflexivity.
Qed.

Theorem chunked_is_oneshot patch :
  apply_patch_chunked cap sizes old patch = apply_patch old patch.
Proof.
  unfold apply_patch_chunked, apply_patch.
  destruct (take_exact 4 patch) as [[m p1]|]; [|reflexivity].
  destruct (bytes_eqb m magic_bytes); [|reflexivity].
  destruct (take_exact 4 p1) as [[v p2]|]; [|reflexivity].
  destruct (bytes_eqb v version_bytes); [|reflexivity].
  rewrite (chunked_den _ _ _ _ (S (List.length p2))) by (unfold rank, fuel_ok; cbn [r_p r_st]; lia).
  unfold den. cbn [r_p r_st r_pos]. rewrite apply_records_den. destruct (den_rec (S (List.length p2)) p2 0); reflexivity.
Qed.

End Den.
