(* Release stability and the ban invariant (I-ban), for every critical section, every
   call and every history. *)
From UV Require Import Base Model PMLemmas Sections.

Section Inv.
Variable sha : bytes -> bytes.
Variable sigok : string -> string -> string -> bool.
Variable zdec : bytes -> bytes.
Variable base : bytes.

Notation fall_back := (fall_back sha sigok).
Notation boot_failure := (boot_failure sha sigok).
Notation step := (step sha sigok zdec base).
Notation sec_pm := (sec_pm sha sigok).
Notation sec_disk := (sec_disk sha sigok).

Definition stable (r : string) (d : disk) : Prop := exists s, sj d = JOk s /\ rel s = r.

Lemma norm_stable c d : stable (c_rel c) (norm c d).
Proof.
  unfold norm, stable. destruct (sj d) as [| |s] eqn:E; cbn; eauto.
  destruct (String.eqb_spec (rel s) (c_rel c)); cbn; eauto.
Qed.

Lemma norm_id c d : stable (c_rel c) d -> norm c d = d.
Proof. intros [s [H1 H2]]. unfold norm. rewrite H1, H2, String.eqb_refl. reflexivity. Qed.

Lemma norm_cases c d : norm c d = d \/ norm c d = fresh_disk (c_rel c).
Proof. unfold norm. destruct (sj d) as [| |s]; auto. destruct (String.eqb (rel s) (c_rel c)); auto. Qed.

Lemma norm_idem c d : norm c (norm c d) = norm c d.
Proof. apply norm_id, norm_stable. Qed.

Lemma stable_of_sj r d d' : sj d' = sj d -> stable r d -> stable r d'.
Proof. intros E [s H]. exists s. rewrite E. exact H. Qed.

Lemma set_evq_stable c d q :
  stable (c_rel c) d -> stable (c_rel c) (set_sj d (JOk {| rel := rel (load_s c d); evq := q |})).
Proof. intros [s [H1 H2]]. unfold load_s. rewrite H1. eexists. split; [reflexivity|exact H2]. Qed.

Lemma sec_stable c k d : stable (c_rel c) (sec_disk c k d).
Proof.
  rewrite sec_disk_split.
  assert (S : stable (c_rel c) (fst (sec_pm (c_key c) k (norm c d) (load_p (norm c d)))))
    by (eapply stable_of_sj; [apply sec_pm_sj|apply norm_stable]).
  destruct k; cbn [sec_sj]; try exact S.
  - destruct (cb _); [apply set_evq_stable|]; exact S.
  - apply set_evq_stable, S.
Qed.

Definition Iban (s : pstate) : Prop :=
  forall n, In n (bad s) ->
            numeq (nb s) n = false /\ numeq (lb s) n = false /\ numeq (cb s) n = false.
Definition IbanD (d : disk) : Prop := Iban (load_p d).

Lemma Iban_empty : Iban pempty.
Proof. intros n []. Qed.

Lemma IbanD_norm c d : IbanD d -> IbanD (norm c d).
Proof. intros H. destruct (norm_cases c d) as [-> | ->]; [exact H|exact Iban_empty]. Qed.

Lemma fall_back_Iban key d s b : Iban s -> Iban (snd (fall_back key d s b)).
Proof.
  intros H n Hn. rewrite fall_back_bad in Hn. destruct (H n Hn) as (H1 & H2 & H3).
  rewrite fall_back_cb. destruct (fall_back_no_new_number sha sigok key d s b n H1 H2). auto.
Qed.

(* the failed number is banned and dropped from every slot *)
Lemma boot_failure_Iban key d s n : Iban s -> Iban (snd (boot_failure key d s n)).
Proof.
  intros H k Hk. unfold Model.boot_failure in *. rewrite fall_back_bad in Hk. rewrite fall_back_cb.
  cbn [bad cb] in *. apply add_bad_In in Hk. destruct Hk as [->|Hk].
  - split; [apply fall_back_nb_neq|]. split; [apply fall_back_lb_neq|reflexivity].
  - destruct (H k Hk) as (H1 & H2 & _).
    destruct (fall_back_no_new_number sha sigok key d
                {| lb := lb s; nb := nb s; cb := None; bad := add_bad n (bad s) |} n k H1 H2). auto.
Qed.

Lemma boot_failure_bans key d s n : In n (bad (snd (boot_failure key d s n))).
Proof. unfold boot_failure. rewrite fall_back_bad. cbn. apply add_bad_In. auto. Qed.

Lemma boot_success_Iban d s : Iban s -> Iban (snd (boot_success d s)).
Proof.
  intros H. unfold boot_success. destruct (cb s) as [b|] eqn:E; cbn; auto.
  intros n Hn. cbn in Hn. destruct (H n Hn) as (H1 & H2 & H3). rewrite E in H3. cbn. auto.
Qed.

Lemma add_patch_Iban d s n b h sg : ~ In n (bad s) -> Iban s -> Iban (snd (add_patch d s n b h sg)).
Proof.
  intros Hn H k Hk. cbn in Hk. destruct (H k Hk) as (H1 & H2 & H3). cbn.
  split; auto. apply N.eqb_neq. intros ->. contradiction.
Qed.

Lemma sec_pm_Iban key k d s : Iban s -> Iban (snd (sec_pm key k d s)).
Proof.
  intros H.
  assert (Hn : Iban (snd (fst (next_boot sha sigok key d s))))
    by (apply (next_boot_pres sha sigok (fun x => Iban (snd x))); [intros; apply fall_back_Iban|]; exact H).
  destruct k; cbn [Sections.sec_pm]; auto.
  - (* SStart *) destruct (next_boot sha sigok key d s) as [[d1 s1] [n|]]; [|exact Hn].
    intros k Hk. destruct (Hn k Hk) as (A & B & _). cbn. auto.
  - (* SSuccess *) apply boot_success_Iban, H.
  - (* SFail *) destruct (cb s); [apply boot_failure_Iban|]; exact H.
  - (* SRollback *) apply (rollback_loop_pres sha sigok (fun x => Iban (snd x))); [|exact H]. intros. apply fall_back_Iban. assumption.
  - (* SInstall *) destruct (inb (p_num p) (bad s)) eqn:E; [exact H|]. apply add_patch_Iban; [|exact H].
    intros Hin. apply inb_In in Hin. congruence.
Qed.

Theorem sec_IbanD c k d : IbanD d -> IbanD (sec_disk c k d).
Proof.
  intros H. apply (sec_lift sha sigok (fun _ s => Iban s)); [auto|]. apply sec_pm_Iban, IbanD_norm, H.
Qed.

(* only damage to patches_state.json can break I-ban *)
Definition pj_damage (o : op) : Prop :=
  match o with ODamage (DSetPj _) => True | _ => False end.

Theorem step_IbanD w o :
  ~ pj_damage o -> IbanD (w_disk w) -> IbanD (w_disk (fst (fst (step w o)))).
Proof.
  intros Hd. apply step_inv.
  - intros g -> H. destruct g; cbn in *; auto; [destruct (arts _ n); exact H|contradiction].
  - intros c k d _ _. apply sec_IbanD.
Qed.

End Inv.
