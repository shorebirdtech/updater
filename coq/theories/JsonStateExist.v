(* The contents of patches_state.json whose strings are text (JsonTextExist.v). *)
From UV Require Import Base Model JsonText JsonTextExist.

Definition meta_utf8 (m : meta) : Prop := utf8_valid (bytes_of (m_hash m)) = true /\ ostring_utf8 (m_sig m).
Definition ometa_utf8 (o : option meta) : Prop := match o with Some m => meta_utf8 m | None => True end.
Definition pstate_utf8 (s : pstate) : Prop := ometa_utf8 (lb s) /\ ometa_utf8 (nb s) /\ ometa_utf8 (cb s).
