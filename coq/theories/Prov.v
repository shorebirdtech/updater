(* C01: every record the updater keeps was issued by an install whose inflated download
   passed the hash gate, and records that file's length (I-prov), for every history with damage. *)
From UV Require Import Base Model Sections Inv Handout Frame Frames2.

Section Prov.
Variable sha : bytes -> bytes.
Variable sigok : string -> string -> string -> bool.
Variable zdec : bytes -> bytes.
Variable base : bytes.

Notation step := (step sha sigok zdec base).
Notation inflate := (inflate zdec base).
Notation hash_ok := (hash_ok sha).

Definition Prov (iss : list meta) (d : disk) : Prop :=
  forall m, In (Some m) (slots (load_p d)) -> In m iss.

Lemma Prov_sub iss d d' : SlotsSub d d' -> Prov iss d -> Prov iss d'.
Proof. intros Hs Hp m Hm. apply Hp, Hs, Hm. Qed.

Lemma Prov_mono iss iss' d : incl iss iss' -> Prov iss d -> Prov iss' d.
Proof. intros Hi Hp m Hm. apply Hi, Hp, Hm. Qed.

(* critical sections start with norm: it is enough to know them on normalised disks *)
Lemma norm_first (f : cfg -> disk -> disk) c d :
  (forall d0, f c d0 = f c (norm c d0)) -> (forall d0, stable (c_rel c) d0 -> SlotsSub d0 (f c d0)) ->
  SlotsSub d (f c d).
Proof using sha zdec base.
  intros Hn Hs. rewrite Hn. eapply SlotsSub_trans; [apply SlotsSub_norm|]. apply Hs, norm_stable.
Qed.

Definition issued_ok (m : meta) : Prop :=
  exists bdl out, inflate bdl = Some out /\ hash_ok out (m_hash m) = true /\ m_size m = blen out.

(* I-prov *)
Definition AllOk (d : disk) : Prop := forall m, In (Some m) (slots (load_p d)) -> issued_ok m.

Lemma AllOk_fresh r : AllOk (fresh_disk r).
Proof. intros m [H|[H|[H|[]]]]; discriminate. Qed.

(* damage: anything goes for the artifacts, state.json and junk; patches_state.json may vanish, turn
   to garbage, or be replaced by a file whose records were all once issued (a stale copy is one) *)
Definition ok_op (o : op) : Prop :=
  match o with
  | ODamage (DSetPj (JOk v)) => forall m, In (Some m) (slots v) -> issued_ok m
  | _ => True
  end.

Lemma load_p_missing d v : (forall s, v <> JOk s) -> load_p (set_pj d v) = pempty.
Proof. unfold load_p. cbn. destruct v; intros H; try reflexivity. exfalso. eapply H. reflexivity. Qed.

Lemma AllOk_damage d g : ok_op (ODamage g) -> AllOk d -> AllOk (apply_damage d g).
Proof.
  intros Hok Ha. destruct g as [n|n|n b|v|v|]; cbn [apply_damage]; try exact Ha.
  - destruct (arts d n); exact Ha.
  - destruct v as [| |s]; [apply (AllOk_fresh ""%string)..|exact Hok].
Qed.

(* the only record a call adds is that of an install, built from a download that passed the gate *)
Theorem step_prov w o :
  ok_op o -> AllOk (w_disk w) -> AllOk (w_disk (fst (fst (step w o)))).
Proof.
  intros Hok. apply step_inv.
  - intros g ->. apply AllOk_damage, Hok.
  - intros c k d _ Hk Ha m Hm. apply sec_slots in Hm. destruct Hm as [Hm|(p & out & -> & _ & ->)]; [apply Ha, Hm|].
    destruct (call_sec_install sha sigok zdec base _ _ _ _ _ _ Hk) as (ch & r & dl & -> & _ & Eg & _). apply gate_some in Eg. destruct Eg as (bdl & _ & Ei & Eh).
    exists bdl, out. auto.
Qed.

Theorem run_prov ops : forall w,
  Forall ok_op ops -> AllOk (w_disk w) -> AllOk (w_disk (fst (run sha sigok zdec base w ops))).
Proof.
  induction ops as [|o r IH]; intros w Hf Ha; cbn [run fst]; [exact Ha|].
  inversion Hf as [|? ? Ho Hr]; subst.
  pose proof (step_prov w o Ho Ha) as H1.
  destruct (step w o) as [[w1 x] l]. cbn [fst] in H1.
  specialize (IH w1 Hr H1). destruct (run sha sigok zdec base w1 r) as [w2 t]. exact IH.
Qed.

Lemma stale_is_ok d : AllOk d -> ok_op (ODamage (DSetPj (JOk (load_p d)))).
Proof. intros Ha m Hm. apply Ha, Hm. Qed.

(* C01, end to end: after any history of calls and admissible damage from a disk whose records were issued, the
   file a query hands out has the length of an inflated download that passed the hash gate for its record *)
Theorem handout_size_provenance w0 ops o w' x log n :
  AllOk (w_disk w0) -> Forall ok_op ops ->
  step (fst (run sha sigok zdec base w0 ops)) o = (w', x, log) -> reports o x n ->
  exists m b bdl out,
    nb (load_p (w_disk w')) = Some m /\ m_num m = n /\
    arts (w_disk w') n = Some (AFile b) /\
    inflate bdl = Some out /\ hash_ok out (m_hash m) = true /\ blen b = blen out.
Proof.
  intros Ha Hf Hs Hr.
  pose proof (run_prov ops w0 Hf Ha) as H1.
  assert (Hok : ok_op o) by (destruct Hr as [(-> & _)|(-> & _)]; exact I).
  pose proof (step_prov _ o Hok H1) as H2. rewrite Hs in H2. cbn [fst] in H2.
  destruct (step_handout sha sigok zdec base _ _ _ _ _ _ Hs Hr) as (c & _ & m & b & Hnb & Hnum & Hart & Hlen & _).
  destruct (H2 m) as (bdl & out & Hi & Hh & Hsz).
  { unfold slots. rewrite Hnb. right. left. reflexivity. }
  exists m, b, bdl, out. repeat split; auto. congruence.
Qed.

End Prov.
