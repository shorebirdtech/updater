(* C01/C07: whatever is reported for boot is intact (and signed); C02: a banned number
   is never handed out, downloaded or installed again. *)
From UV Require Import Base Model PMLemmas Sections Inv Ban.

Section Handout.
Variable sha : bytes -> bytes.
Variable sigok : string -> string -> string -> bool.
Variable zdec : bytes -> bytes.
Variable base : bytes.

Notation validate := (validate sha sigok).
Notation fall_back := (fall_back sha sigok).
Notation cs_next := (cs_next sha sigok).
Notation cs_start := (cs_start sha sigok).
Notation should_install := (should_install sha sigok).
Notation do_check := (do_check sha sigok).
Notation do_update := (do_update sha sigok zdec base).
Notation step := (step sha sigok zdec base).
Notation secs := (secs sha sigok).
Notation rolled := (rolled sha sigok).

Definition intact (key : option string) (d : disk) (n : N) : Prop :=
  exists m b,
    nb (load_p d) = Some m /\ m_num m = n /\
    arts d n = Some (AFile b) /\ blen b = m_size m /\
    (forall k, key = Some k ->
               exists s, m_sig m = Some s /\ sigok k (hex_of_bytes (sha b)) s = true).

Lemma validate_intact key d m :
  nb (load_p d) = Some m -> validate key d m = true -> intact key d (m_num m).
Proof.
  intros Hn Hv. unfold Model.validate in Hv.
  destruct (arts d (m_num m)) as [[|b]|] eqn:Ea; try discriminate.
  apply andb_prop in Hv. destruct Hv as [Hs Hk]. apply N.eqb_eq in Hs.
  exists m, b. repeat split; auto.
  intros k ->. destruct (m_sig m) as [s|]; [|discriminate]. exists s. auto.
Qed.

Lemma cs_next_intact c d d' n : cs_next c d = (d', Some n) -> intact (c_key c) d' n.
Proof.
  intros E. pose proof (cs_next_loaded sha sigok c d) as H. rewrite E in H.
  destruct (next_boot_selected _ _ _ _ _ _ _ _ H) as (m & Hn & <- & Hv). apply validate_intact; assumption.
Qed.

Lemma cs_start_intact c d :
  match snd (cs_next c d) with
  | Some n => cb (load_p (cs_start c d)) = nb (load_p (cs_start c d)) /\ intact (c_key c) (cs_start c d) n
  | None => cb (load_p (cs_start c d)) = cb (load_p (norm c d))
  end.
Proof.
  unfold Model.cs_start. rewrite cs_next_loaded.
  destruct (cs_next c d) as [d1 [n|]] eqn:E; cbn [fst snd].
  - split; [reflexivity|]. destruct (cs_next_intact c d d1 n E) as (m & b & H). exists m, b. exact H.
  - pose proof (sec_pm_cb sha sigok (c_key c) SNext (norm c d) (load_p (norm c d)) I) as H.
    cbn [sec_pm] in H. rewrite cs_next_loaded, E in H. exact H.
Qed.

Definition reports (o : op) (x : out) (n : N) : Prop :=
  (o = ONextNum /\ x = RNum n /\ n <> 0) \/ (o = ONextPath /\ x = RPath (Some n)).

Theorem step_handout w o w' x log n :
  step w o = (w', x, log) -> reports o x n ->
  exists c, w_cfg w' = Some c /\ intact (c_key c) (w_disk w') n.
Proof.
  (* both reporting calls are the selection query, and without a configuration nothing is reported *)
  intros Hs [(-> & -> & Hn) | (-> & ->)]; destruct w as [d [c|]]; cbn in Hs; try congruence;
    destruct (cs_next c d) as [d1 r] eqn:E; injection Hs as <- Hr _;
    exists c; (split; [reflexivity|]); apply (cs_next_intact c d); rewrite E; f_equal.
  - destruct r; congruence.
  - congruence.
Qed.

Theorem cs_next_invalid_not_reported c d m :
  nb (load_p (norm c d)) = Some m -> validate (c_key c) (norm c d) m = false ->
  snd (cs_next c d) <> Some (m_num m) /\
  snd (cs_next c d) =
    onum (match lb (load_p (norm c d)) with
          | Some l => if negb (N.eqb (m_num l) (m_num m)) &&
                         validate (c_key c) (del_art (norm c d) (m_num m)) l
                      then Some l else None
          | None => None
          end).
Proof.
  intros Hn Hv. unfold Model.cs_next, Model.next_boot. rewrite Hn, Hv.
  pose proof (fall_back_nb_neq sha sigok (c_key c) (norm c d) (load_p (norm c d)) (m_num m)) as H1.
  pose proof (fall_back_target sha sigok (c_key c) (norm c d) (load_p (norm c d)) (m_num m)) as H2.
  destruct (fall_back (c_key c) (norm c d) (load_p (norm c d)) (m_num m)) as [d1 s1]. cbn [fst snd] in *.
  rewrite Hn in H2. cbn [numeq] in H2. rewrite N.eqb_refl in H2. rewrite <- (H2 eq_refl).
  split; [|reflexivity]. destruct (nb s1) as [x|]; [|discriminate]. cbn in *.
  intros E. injection E as E. apply N.eqb_neq in H1. contradiction.
Qed.

(* C02 *)
Lemma secs_BM c A d d' : stable (c_rel c) d -> secs c A d d' -> BM (c_rel c) d d'.
Proof.
  (* the invariant carried along the sections is "BM from d to here" itself; its first half is the
     stability that sec_BM needs for the next section *)
  intros S H.
  apply (secs_inv sha sigok c A (BM (c_rel c) d)
           (fun k x _ B => BM_trans _ _ _ _ B (sec_BM sha sigok c k x (proj1 B))) _ _ H).
  apply BM_refl, S.
Qed.

Lemma should_install_banned c d n :
  stable (c_rel c) d -> In n (bad (load_p d)) -> should_install c d n = (d, ShBad).
Proof.
  intros S H. unfold Model.should_install, cs_is_bad. rewrite (norm_id c d S).
  apply inb_In in H. rewrite H. reflexivity.
Qed.

Lemma rolled_BM c d rs : stable (c_rel c) d -> BM (c_rel c) d (rolled c d rs).
Proof.
  intros S. pose proof (secs_BM c _ d _ S (cleared_secs sha sigok c (fun _ _ => True) d I I)) as B.
  eapply BM_trans; [exact B|]. eapply secs_BM; [exact (proj1 B)|]. apply (rollback_secs sha sigok c (cleared c d) rs).
Qed.

Definition no_download (l : list netobs) : Prop := forall u, ~ In (NDownload u) l.

Lemma no_download_sent c d ch : no_download (sent c d ch).
Proof.
  intros u H. apply in_app_or in H. destruct H as [H|[H|[]]]; [|discriminate].
  apply in_map_iff in H. destruct H as [e [E _]]. discriminate.
Qed.

Theorem update_offer_of_banned c d ch rs p dl :
  stable (c_rel c) d -> In (p_num p) (bad (load_p d)) ->
  r_avail rs = true -> r_patch rs = Some p ->
  let '(d', st, log) := do_update c d ch (Some rs) dl in
  st = UBadPatch /\ no_download log /\ In (p_num p) (bad (load_p d')).
Proof.
  intros S Hb Ha Hp. destruct (rolled_BM c d rs S) as [S' B].
  rewrite (update_refused sha sigok zdec base c d ch rs p dl _ ShBad Ha Hp (should_install_banned c _ _ S' (B _ Hb))) by discriminate.
  split; [reflexivity|]. split; [apply no_download_sent|exact (B _ Hb)].
Qed.

Theorem check_offer_of_banned c d ch rs p :
  stable (c_rel c) d -> In (p_num p) (bad (load_p d)) -> r_patch rs = Some p ->
  snd (fst (do_check c d ch (Some rs))) = false.
Proof.
  intros S Hb Hp. unfold Model.do_check. rewrite Hp.
  pose proof (secs_BM c _ d _ S (rollback_secs sha sigok c d rs)) as B.
  rewrite (should_install_banned c _ (p_num p) (proj1 B) (proj2 B _ Hb)). reflexivity.
Qed.

Lemma update_unavailable c d ch rs dl :
  r_avail rs = false ->
  snd (fst (do_update c d ch (Some rs) dl)) = UNoUpdate /\ no_download (snd (do_update c d ch (Some rs) dl)).
Proof.
  intros Ea. destruct (do_update_answer sha sigok zdec base c d ch rs dl); try congruence.
  split; [reflexivity|apply no_download_sent].
Qed.

Lemma fail_disk_bans c msg d b :
  cb (load_p (norm c d)) = Some b -> In (m_num b) (bad (load_p (fail_disk sha sigok c msg d))).
Proof.
  intros H. apply (sec_lift sha sigok (fun _ s => In (m_num b) (bad s)) c (SFail msg)); [auto|].
  cbn [sec_pm]. rewrite H. apply boot_failure_bans.
Qed.

(* the facts that make "n is banned" permanent within release r *)
Definition Banned (r : string) (n : N) (w : world) : Prop :=
  stable r (w_disk w) /\ IbanD (w_disk w) /\ In n (bad (load_p (w_disk w))) /\
  (forall c, w_cfg w = Some c -> c_rel c = r).

Lemma within_not_pj r w o : within r w o -> ~ pj_damage o.
Proof. intros [_ H] Hd. destruct o; try contradiction. destruct g; contradiction. Qed.

Theorem Banned_step r n w o : within r w o -> Banned r n w -> Banned r n (fst (fst (step w o))).
Proof.
  intros Hw (S & I & B & C).
  destruct (step_BM sha sigok zdec base r w o Hw S) as [[S' M] C'].
  split; [exact S'|]. split; [apply step_IbanD; auto; eapply within_not_pj; eauto|].
  split; [apply M, B|exact C'].
Qed.

Definition respects_ban (n : N) (o : op) (x : out) (log : list netobs) : Prop :=
  ~ reports o x n /\
  match o with
  | OUpdate _ (Some rs) _ =>
      match r_patch rs with
      | Some p => p_num p = n ->
                  x <> RStatus 1 /\ no_download log /\
                  (r_avail rs = true -> (exists q, In (NCheck q) log) -> x = RStatus 3)
      | None => True
      end
  | OCheck _ (Some rs) =>
      match r_patch rs with
      | Some p => p_num p = n -> x = RBool false
      | None => True
      end
  | _ => True
  end.

Lemma intact_not_banned key d n : IbanD d -> intact key d n -> ~ In n (bad (load_p d)).
Proof.
  intros I (m & b & H1 & H2 & _) Hb. destruct (I n Hb) as [H _]. rewrite H1 in H.
  apply numeq_false_some in H. contradiction.
Qed.

Local Opaque Model.do_check Model.do_update.
Theorem Banned_respected r n w o :
  within r w o -> Banned r n w ->
  let '(w', x, log) := step w o in respects_ban n o x log.
Proof.
  intros Hw HB. pose proof (Banned_step r n w o Hw HB) as HB'.
  destruct (step w o) as [[w' x] log] eqn:E. cbn in HB'.
  destruct HB as (S & I & B & C). destruct HB' as (S' & I' & B' & C').
  split.
  - intros Hr. destruct (step_handout w o w' x log n E Hr) as [c [_ Hi]].
    eapply intact_not_banned; eauto.
  - destruct o as [| | | | | | | | |ch r0|ch r0 dl|]; auto; destruct r0 as [rs|]; auto;
      destruct (r_patch rs) as [p|] eqn:Ep; auto; intros <-.
    + (* check *)
      destruct w as [d [c|]]; cbn in E, C.
      * specialize (C c eq_refl). subst r. pose proof (check_offer_of_banned c d ch rs p S B Ep) as H.
        destruct (do_check c d ch (Some rs)) as [[d1 b1] l1]. cbn in H, E. injection E as _ <- _. subst. reflexivity.
      * injection E as _ <- _. reflexivity.
    + (* update *)
      destruct w as [d [c|]]; cbn in E, C.
      * specialize (C c eq_refl). subst r.
        pose proof (update_offer_of_banned c d ch rs p dl S B) as H1.
        pose proof (update_unavailable c d ch rs dl) as H2.
        destruct (do_update c d ch (Some rs) dl) as [[d1 st] l1]. cbn in E, H2. injection E as _ <- <-.
        destruct (r_avail rs).
        -- destruct (H1 eq_refl Ep) as (-> & Hn & _). cbn. split; [discriminate|]. split; auto.
        -- destruct (H2 eq_refl) as [-> Hn]. split; [discriminate|]. split; [exact Hn|discriminate].
      * injection E as _ <- <-. split; [discriminate|]. split; [intros u []|intros _ [q []]].
Qed.

Fixpoint all_within (r : string) (w : world) (ops : list op) : Prop :=
  match ops with
  | [] => True
  | o :: rest => within r w o /\ all_within r (fst (fst (step w o))) rest
  end.

Fixpoint all_respect (n : N) (w : world) (ops : list op) : Prop :=
  match ops with
  | [] => True
  | o :: rest => (let '(_, x, log) := step w o in respects_ban n o x log) /\
                 all_respect n (fst (fst (step w o))) rest
  end.

Theorem banned_forever r n ops : forall w,
  Banned r n w -> all_within r w ops -> all_respect n w ops.
Proof.
  induction ops as [|o rest IH]; intros w HB HW; cbn; auto.
  destruct HW as [Hw HW]. split.
  - pose proof (Banned_respected r n w o Hw HB) as H. destruct (step w o) as [[? ?] ?]. exact H.
  - apply IH; auto. apply Banned_step; auto.
Qed.

End Handout.
