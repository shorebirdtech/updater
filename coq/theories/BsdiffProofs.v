(* Whatever the suffix-array matcher answers (within the buffers), the Matches that
   bidiff's scan loop emits are well formed: they tile the new file, their add ranges lie inside the
   old file, the first starts at old offset 0 — the hypothesis of the round-trip theorem (C16). And
   the loop terminates within |new| + 2 turns. *)
From UV Require Import Base Codec Bsdiff.
From Coq Require Import ZifyBool.

Section P.
Variable old new : bytes.
Variable lsm : N -> N * N.
Notation olen := (olen old).
Notation nlen := (nlen new).
Hypothesis Hlsm : lsm_bounded old new lsm.

Lemma lenf_loop_bound n : forall i s sf lf lp ls,
  Z.to_N lf <= i -> Z.to_N (lenf_loop old new n i s sf lf lp ls) <= i + N.of_nat n.
Proof.
  induction n as [|n IH]; intros i s sf lf lp ls H; cbn [lenf_loop]; [lia|].
  replace (i + N.of_nat (S n)) with (i + 1 + N.of_nat n) by lia.
  destruct (_ <? _)%Z; apply IH; lia.
Qed.

Lemma lenb_loop_bound n : forall i s sb lb ps sc,
  Z.to_N lb < i -> Z.to_N (lenb_loop old new n i s sb lb ps sc) < i + N.of_nat n.
Proof.
  induction n as [|n IH]; intros i s sb lb ps sc H; cbn [lenb_loop]; [lia|].
  replace (i + N.of_nat (S n)) with (i + 1 + N.of_nat n) by lia.
  destruct (_ <? _)%Z; apply IH; lia.
Qed.

Lemma lens_loop_bound n : forall i s ss ls a b c d,
  ls <= i -> lens_loop old new n i s ss ls a b c d <= i + N.of_nat n.
Proof.
  induction n as [|n IH]; intros i s ss ls a b c d H; cbn [lens_loop]; [lia|].
  replace (i + N.of_nat (S n)) with (i + 1 + N.of_nat n) by lia.
  destruct (_ <? _)%Z; apply IH; lia.
Qed.

Lemma inner_spec fuel : forall sc scsc ps ln off score sc' ps' ln' score',
  inner old new lsm fuel sc scsc ps ln off score = Ok (sc', ps', ln', score') ->
  sc <= nlen -> ps + ln <= olen ->
  sc <= sc' <= nlen /\ ps' + ln' <= olen /\ (sc' < nlen -> sc' + ln' <= nlen /\ 1 <= ln').
Proof.
  induction fuel as [|f IH]; intros sc scsc ps ln off score sc' ps' ln' score' H Hsc Hps;
    cbn [inner] in H; [discriminate|].
  destruct (sc <? nlen) eqn:E.
  - destruct (lsm sc) as [p l] eqn:El.
    pose proof (Hlsm sc ltac:(lia)) as Hb. rewrite El in Hb. cbn [fst snd] in Hb.
    destruct (_ || _) eqn:Ebr in H.
    + injection H as <- <- <- <-. lia.
    + destruct (same _ _ _ _) in H; [destruct (_ =? 0) in H; [discriminate|]|]; apply IH in H; lia.
  - injection H as <- <- <- <-. lia.
Qed.

Definition Scan (st : bs) : Prop :=
  lastscan st <= scan st <= nlen /\ lastpos st <= olen /\ pos st + len st <= olen /\
  (scan st < nlen -> scan st + len st <= nlen) /\ (scan st = nlen -> lastscan st = nlen).

Lemma Scan_bs0 : Scan bs0.
Proof. unfold Scan, bs0; cbn. lia. Qed.

(* the intermediate values of [emit], by the names they have there *)
Definition lenf0 st sc :=
  Z.to_N (lenf_loop old new (N.to_nat (N.min (sc - lastscan st) (olen - lastpos st)))
                    0 0 0 0 (lastpos st) (lastscan st)).
Definition lenb0 st sc ps :=
  if nlen <=? sc then 0
  else Z.to_N (lenb_loop old new (N.to_nat (N.min (sc - lastscan st) ps)) 1 0 0 0 ps sc).
Definition overlap st sc ps := lastscan st + lenf0 st sc - (sc - lenb0 st sc ps).
Definition lens st sc ps :=
  lens_loop old new (N.to_nat (overlap st sc ps)) 0 0 0 0
            (lastscan st + lenf0 st sc - overlap st sc ps) (lastpos st + lenf0 st sc - overlap st sc ps)
            (sc - lenb0 st sc ps) (ps - lenb0 st sc ps).

(* all that is used of the three scoring loops *)
Lemma cut_bounds st sc ps : lastscan st <= sc -> lastpos st <= olen ->
  lastscan st + lenf0 st sc <= sc /\ lastpos st + lenf0 st sc <= olen /\
  lastscan st + lenb0 st sc ps <= sc /\ lenb0 st sc ps <= ps /\ (nlen <= sc -> lenb0 st sc ps = 0) /\
  lens st sc ps <= overlap st sc ps.
Proof.
  intros Hls Hlp.
  pose proof (lenf_loop_bound (N.to_nat (N.min (sc - lastscan st) (olen - lastpos st))) 0 0 0 0 (lastpos st) (lastscan st)
                (N.le_refl 0)) as Hf.
  pose proof (lenb_loop_bound (N.to_nat (N.min (sc - lastscan st) ps)) 1 0 0 0 ps sc N.lt_0_1) as Hb.
  pose proof (lens_loop_bound (N.to_nat (overlap st sc ps)) 0 0 0 0
                (lastscan st + lenf0 st sc - overlap st sc ps) (lastpos st + lenf0 st sc - overlap st sc ps)
                (sc - lenb0 st sc ps) (ps - lenb0 st sc ps) (N.le_refl 0)) as Hs.
  rewrite N2Nat.id in Hf, Hb, Hs. apply N.min_glb_iff in Hf. fold (lenf0 st sc) in Hf.
  unfold lenb0. destruct (nlen <=? sc) eqn:E; repeat split; try exact Hs; lia.
Qed.

Lemma emit_cut st sc ps ln : lastscan st <= sc -> lastpos st <= olen ->
  exists lenf lenb,
    lastpos st + lenf <= olen /\ lenb <= ps /\ lastscan st + lenf + lenb <= sc /\ (nlen <= sc -> lenb = 0) /\
    emit old new st sc ps ln =
    ({| add_old_start := lastpos st; add_new_start := lastscan st; add_length := lenf; copy_end := sc - lenb |},
     {| scan := sc; pos := ps; len := ln; lastscan := sc - lenb; lastpos := ps - lenb;
        lastoff := (Z.of_N ps - Z.of_N sc)%Z |}).
Proof.
  intros Hls Hlp. unfold emit.
  fold (lenf0 st sc) (lenb0 st sc ps) (overlap st sc ps) (lens st sc ps).
  pose proof (cut_bounds st sc ps Hls Hlp) as B. unfold overlap in *. revert B.
  generalize (lens st sc ps) (lenf0 st sc) (lenb0 st sc ps). intros ls lf lb B.
  destruct (_ <? _) eqn:Eov.
  - exists (lf + ls - (lastscan st + lf - (sc - lb))), (lb - ls). repeat split; lia.
  - exists lf, lb. repeat split; lia.
Qed.

(* a bound on the turns still to come: each turn moves scan + len forward, the last one ends at nlen *)
Definition turns (st : bs) : nat :=
  if scan st <? nlen then N.to_nat (nlen - (scan st + len st)) + 2 else 1.

(* one turn of the outer loop, after its inner search: where the search stops; a turn that emits
   nothing; a turn that emits a control triple *)
Lemma outer_step st sc ps ln score :
  Scan st -> scan st < nlen ->
  inner old new lsm (S (N.to_nat (nlen - (scan st + len st)))) (scan st + len st) (scan st + len st)
        (pos st) (len st) (lastoff st) 0 = Ok (sc, ps, ln, score) ->
  (scan st + len st <= sc <= nlen /\ ps + ln <= olen) /\
  (sc < nlen ->
   let st' := {| scan := sc; pos := ps; len := ln; lastscan := lastscan st; lastpos := lastpos st;
                 lastoff := lastoff st |} in
   Scan st' /\ (turns st' < turns st)%nat) /\
  let (m, st') := emit old new st sc ps ln in
  Scan st' /\ (turns st' < turns st)%nat /\ add_old_start m = lastpos st /\
  forall ms, wf_matches_from old new (lastscan st') ms = true ->
             wf_matches_from old new (lastscan st) (m :: ms) = true.
Proof.
  unfold Scan. intros HI Hlt H. apply inner_spec in H; [|lia..].
  assert (Ht : forall st', scan st' = sc -> len st' = ln -> (turns st' < turns st)%nat).
  { intros st' E1 E2. unfold turns. rewrite E1, E2, (proj2 (N.ltb_lt _ _) Hlt).
    destruct (sc <? nlen) eqn:E4; lia. }
  split; [tauto|]. split.
  - intros Hsc. split; [|apply Ht; reflexivity]. unfold Scan. cbn [scan pos len lastscan lastpos]. lia.
  - destruct (emit_cut st sc ps ln) as (lenf & lenb & C1 & C2 & C3 & C4 & ->); [lia..|].
    split; [|split; [apply Ht; reflexivity|split; [reflexivity|]]].
    + unfold Scan. cbn [scan pos len lastscan lastpos]. repeat split; lia.
    + intros ms W. cbn [wf_matches_from add_old_start add_new_start add_length copy_end lastscan] in W |- *.
      rewrite W. unfold olen, nlen in *. lia.
Qed.

Lemma outer_wf fuel : forall st ms,
  outer old new lsm fuel st = Ok ms -> Scan st ->
  wf_matches_from old new (lastscan st) ms = true /\
  match ms with m :: _ => add_old_start m = lastpos st | [] => True end.
Proof.
  induction fuel as [|f IH]; intros st ms H HI; cbn [outer] in H; [discriminate|].
  destruct (scan st <? nlen) eqn:E.
  - destruct (inner old new lsm _ _ _ _ _ _ _) as [[[[sc ps] ln] score]| |] eqn:Ein; try discriminate.
    destruct (outer_step _ _ _ _ _ HI ltac:(lia) Ein) as (Hb & Hc & He).
    destruct (negb _ || _) eqn:Eem.
    + destruct (emit old new st sc ps ln) as [m st']. destruct He as (M1 & _ & M2 & M3).
      destruct (outer old new lsm f st') as [ms'| |] eqn:Eo; try discriminate.
      injection H as <-. apply IH in Eo; [|exact M1]. split; [apply M3, Eo|exact M2].
    + destruct Hc as [Hc _]; [lia|]. apply (IH _ _ H Hc).
  - injection H as <-. split; [|exact I]. unfold Scan in HI. cbn [wf_matches_from]. unfold nlen in *. lia.
Qed.

Theorem bsdiff_wf ms : bsdiff old new lsm = Ok ms -> wf_matches old new ms = true.
Proof.
  intros H. destruct (outer_wf _ _ _ H Scan_bs0) as [W F].
  unfold wf_matches. destruct ms as [|m r].
  - exact W.
  - rewrite F. exact W.
Qed.

Lemma inner_fuel fuel : forall sc scsc ps ln off score,
  sc <= nlen -> (N.to_nat (nlen - sc) < fuel)%nat ->
  inner old new lsm fuel sc scsc ps ln off score <> OutOfFuel.
Proof.
  induction fuel as [|f IH]; intros sc scsc ps ln off score Hsc Hf; [lia|].
  cbn [inner]. destruct (sc <? nlen) eqn:E; [|discriminate].
  destruct (lsm sc) as [p l].
  destruct (_ || _); [discriminate|].
  destruct (same _ _ _ _); [destruct (_ =? 0); [discriminate|]|]; apply IH; lia.
Qed.

Lemma outer_fuel fuel : forall st, Scan st -> (turns st <= fuel)%nat -> outer old new lsm fuel st <> OutOfFuel.
Proof.
  induction fuel as [|f IH]; intros st HI Hf; [unfold turns in Hf; destruct (_ <? _); lia|].
  cbn [outer]. destruct (scan st <? nlen) eqn:E; [|discriminate].
  destruct (inner old new lsm _ _ _ _ _ _ _) as [[[[sc ps] ln] score]| |] eqn:Ein;
    [|discriminate|exfalso; revert Ein; unfold Scan in HI; apply inner_fuel; lia].
  destruct (outer_step _ _ _ _ _ HI ltac:(lia) Ein) as (Hb & Hc & He).
  destruct (negb _ || _) eqn:Eem.
  - destruct (emit old new st sc ps ln) as [m st']. destruct He as (M1 & M2 & _).
    specialize (IH st' M1 ltac:(lia)). destruct (outer old new lsm f st'); congruence.
  - destruct Hc as [Hc1 Hc2]; [lia|]. apply IH; [exact Hc1|lia].
Qed.

Theorem bsdiff_terminates : bsdiff old new lsm <> OutOfFuel.
Proof.
  apply outer_fuel; [exact Scan_bs0|]. unfold turns. cbn [bs0 scan len]. destruct (_ <? _); lia.
Qed.

End P.
