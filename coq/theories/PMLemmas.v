(* Facts about the PatchManager-level functions of Model.v.  Every way the
   PatchManager drops a selection goes through fall_back: next_boot, boot_failure and the
   rollback loop are fall_back applied zero or more times ([next_boot_pres], [rollback_loop_pres]). *)
From UV Require Import Base Model.

Section Lemmas.
Variable sha : bytes -> bytes.
Variable sigok : string -> string -> string -> bool.

Notation validate := (validate sha sigok).
Notation fall_back := (fall_back sha sigok).
Notation next_boot := (next_boot sha sigok).
Notation rollback_loop := (rollback_loop sha sigok).

(* case analysis on everything the goal matches on: the field equations of fall_back below hold in each case
   by computation *)
Ltac cases :=
  repeat (match goal with
          | |- context [match ?x with _ => _ end] => destruct x eqn:?
          end; cbn in *).

Lemma validate_arts key d d' m :
  arts d' (m_num m) = arts d (m_num m) -> validate key d' m = validate key d m.
Proof. unfold validate. intros ->. reflexivity. Qed.

Lemma validate_set_pj key d v m : validate key (set_pj d v) m = validate key d m.
Proof. reflexivity. Qed.
Lemma validate_set_sj key d v m : validate key (set_sj d v) m = validate key d m.
Proof. reflexivity. Qed.
Lemma validate_save key d s m : validate key (save_p d s) m = validate key d m.
Proof. reflexivity. Qed.

Lemma validate_some key d m :
  validate key d m = true -> exists b, arts d (m_num m) = Some (AFile b) /\ blen b = m_size m.
Proof.
  unfold validate. destruct (arts d (m_num m)) as [[|b]|]; try discriminate.
  intros H. apply andb_prop in H. destruct H as [H _]. exists b. split; auto.
  apply N.eqb_eq. exact H.
Qed.

Lemma validate_none key d m : arts d (m_num m) = None -> validate key d m = false.
Proof. unfold validate. intros ->. reflexivity. Qed.

Lemma upd_art_same a n v : upd_art a n v n = v.
Proof. unfold upd_art. rewrite N.eqb_refl. reflexivity. Qed.
Lemma upd_art_other a n v k : k <> n -> upd_art a n v k = a k.
Proof. unfold upd_art. intros H. destruct (N.eqb_spec k n); [contradiction|reflexivity]. Qed.

Lemma arts_del_same d n : arts (del_art d n) n = None.
Proof. cbn. apply upd_art_same. Qed.
Lemma arts_del_other d n k : k <> n -> arts (del_art d n) k = arts d k.
Proof. cbn. apply upd_art_other. Qed.

Lemma validate_del key d x m :
  validate key (del_art d x) m = if N.eqb (m_num m) x then false else validate key d m.
Proof.
  destruct (N.eqb_spec (m_num m) x) as [E|E].
  - apply validate_none. rewrite E. apply arts_del_same.
  - apply validate_arts. apply arts_del_other. exact E.
Qed.

Lemma validate_put_other key d n b m : m_num m <> n -> validate key (put_art d n b) m = validate key d m.
Proof. intros E. apply validate_arts. cbn. apply upd_art_other. exact E. Qed.

Lemma validate_sweep key d s n m :
  validate key (sweep d s n) m =
  if N.ltb (m_num m) n && negb (numeq (nb s) (m_num m)) then false else validate key d m.
Proof.
  unfold validate, sweep. cbn [arts set_junk set_arts].
  destruct (N.ltb (m_num m) n && negb (numeq (nb s) (m_num m))); reflexivity.
Qed.

Lemma numeq_true o n : numeq o n = true <-> exists m, o = Some m /\ m_num m = n.
Proof.
  unfold numeq. destruct o as [m|].
  - rewrite N.eqb_eq. split; [intros; exists m; auto|intros [m' [E H]]; inversion E; subst; auto].
  - split; [discriminate|intros [m [E _]]; discriminate].
Qed.
Lemma numeq_false_some m n : numeq (Some m) n = false <-> m_num m <> n.
Proof. unfold numeq. apply N.eqb_neq. Qed.

Lemma inb_In n l : inb n l = true <-> In n l.
Proof.
  unfold inb. rewrite existsb_exists. split.
  - intros [x [Hx E]]. apply N.eqb_eq in E. subst. exact Hx.
  - intros H. exists n. split; auto. apply N.eqb_refl.
Qed.

Lemma add_bad_In n k l : In k (add_bad n l) <-> k = n \/ In k l.
Proof.
  unfold add_bad. destruct (inb n l) eqn:E.
  - apply inb_In in E. split; auto. intros [->|H]; auto.
  - cbn. split; intros [H|H]; auto.
Qed.

Lemma load_save d s : load_p (save_p d s) = s.
Proof. reflexivity. Qed.
Lemma load_set_sj d v : load_p (set_sj d v) = load_p d.
Proof. reflexivity. Qed.
Lemma load_of_pj d s : pj d = JOk s -> load_p d = s.
Proof. unfold load_p. intros ->. reflexivity. Qed.

Lemma fall_back_saved key d s b : pj (fst (fall_back key d s b)) = JOk (snd (fall_back key d s b)).
Proof. unfold fall_back. cases; reflexivity. Qed.

Lemma fall_back_bad key d s b : bad (snd (fall_back key d s b)) = bad s.
Proof. unfold fall_back. cases; reflexivity. Qed.

Lemma fall_back_cb key d s b : cb (snd (fall_back key d s b)) = cb s.
Proof. unfold fall_back. cases; reflexivity. Qed.

Lemma fall_back_sj key d s b : sj (fst (fall_back key d s b)) = sj d.
Proof. unfold fall_back. cases; reflexivity. Qed.

Lemma fall_back_arts key d s b k :
  arts (fst (fall_back key d s b)) k = arts d k \/ arts (fst (fall_back key d s b)) k = None.
Proof.
  unfold fall_back. cases; cbn; unfold upd_art; cases; auto.
Qed.

Lemma fall_back_arts_kept key d s b k :
  k <> b ->
  (forall l, lb s = Some l -> m_num l = k -> validate key d l = true) ->
  arts (fst (fall_back key d s b)) k = arts d k.
Proof.
  intros Hk Hl. unfold fall_back.
  destruct (lb s) as [l|] eqn:El; cbn.
  - destruct (negb (N.eqb (m_num l) b) && validate key (del_art d b) l) eqn:E; cbn.
    + apply upd_art_other; auto.
    + destruct (N.eqb_spec k (m_num l)) as [->|Hn].
      * exfalso. specialize (Hl l eq_refl eq_refl).
        rewrite (validate_arts key d (del_art d b)) in E
          by (apply arts_del_other; auto).
        rewrite Hl in E. apply N.eqb_neq in Hk. rewrite Hk in E. discriminate.
      * rewrite upd_art_other by auto. apply upd_art_other; auto.
  - apply upd_art_other; auto.
Qed.

Lemma fall_back_deletes key d s b : arts (fst (fall_back key d s b)) b = None.
Proof.
  unfold fall_back. cases; cbn; unfold upd_art; cases; auto;
    rewrite ?N.eqb_refl in *; try discriminate; auto.
Qed.

Definition lb_kept (key : option string) (d : disk) (s : pstate) (b : N) : option meta :=
  match lb s with
  | Some l => if negb (N.eqb (m_num l) b) && validate key (del_art d b) l then Some l else None
  | None => None
  end.

Lemma fall_back_lb key d s b : lb (snd (fall_back key d s b)) = lb_kept key d s b.
Proof. unfold fall_back, lb_kept. cases; reflexivity. Qed.

Lemma fall_back_nb key d s b :
  nb (snd (fall_back key d s b)) =
  match (if numeq (nb s) b then None else nb s) with Some x => Some x | None => lb_kept key d s b end.
Proof. unfold fall_back, lb_kept. cases; reflexivity. Qed.

Lemma lb_kept_some key d s b l :
  lb_kept key d s b = Some l -> lb s = Some l /\ m_num l <> b /\ validate key (del_art d b) l = true.
Proof.
  unfold lb_kept. destruct (lb s) as [l0|]; [|discriminate].
  destruct (negb (N.eqb (m_num l0) b) && validate key (del_art d b) l0) eqn:E; [|discriminate].
  intros H. injection H as <-. apply andb_prop in E. destruct E as [E1 E2].
  apply negb_true_iff, N.eqb_neq in E1. auto.
Qed.

Lemma fall_back_lb_neq key d s b : numeq (lb (snd (fall_back key d s b))) b = false.
Proof.
  rewrite fall_back_lb. destruct (lb_kept key d s b) as [l|] eqn:E; [|reflexivity].
  apply lb_kept_some in E. apply numeq_false_some, E.
Qed.

Lemma fall_back_nb_neq key d s b : numeq (nb (snd (fall_back key d s b))) b = false.
Proof.
  rewrite fall_back_nb. destruct (numeq (nb s) b) eqn:E1.
  - rewrite <- fall_back_lb. apply fall_back_lb_neq.
  - destruct (nb s); [exact E1|]. rewrite <- fall_back_lb. apply fall_back_lb_neq.
Qed.

Lemma fall_back_no_new_number key d s b n :
  numeq (nb s) n = false -> numeq (lb s) n = false ->
  numeq (nb (snd (fall_back key d s b))) n = false /\ numeq (lb (snd (fall_back key d s b))) n = false.
Proof.
  intros Hn Hl. rewrite fall_back_nb, fall_back_lb.
  assert (Hk : numeq (lb_kept key d s b) n = false).
  { destruct (lb_kept key d s b) as [l|] eqn:E; [|reflexivity]. apply lb_kept_some in E. destruct E as [<- _]. exact Hl. }
  split; [|exact Hk]. destruct (numeq (nb s) b); [exact Hk|]. destruct (nb s); [exact Hn|exact Hk].
Qed.

Lemma fall_back_lb_valid key d s b l :
  lb (snd (fall_back key d s b)) = Some l -> validate key (fst (fall_back key d s b)) l = true.
Proof.
  unfold fall_back. destruct (lb s) as [l0|] eqn:El; cbn.
  - destruct (negb (N.eqb (m_num l0) b) && validate key (del_art d b) l0) eqn:E; cbn.
    + intros H. inversion H; subst. apply andb_prop in E. destruct E as [_ E]. exact E.
    + discriminate.
  - discriminate.
Qed.

Lemma fall_back_target key d s b :
  numeq (nb s) b = true ->
  nb (snd (fall_back key d s b)) =
  match lb s with
  | Some l => if negb (N.eqb (m_num l) b) && validate key (del_art d b) l then Some l else None
  | None => None
  end.
Proof. intros H. rewrite fall_back_nb, H. reflexivity. Qed.

Lemma fall_back_nb_kept key d s b x :
  nb s = Some x -> m_num x <> b -> nb (snd (fall_back key d s b)) = Some x.
Proof.
  intros H Hn. rewrite fall_back_nb, H.
  apply numeq_false_some in Hn. rewrite Hn. reflexivity.
Qed.

Lemma next_boot_pres (Q : disk * pstate -> Prop) key d s :
  (forall m, nb s = Some m -> validate key d m = false -> Q (fall_back key d s (m_num m))) ->
  Q (d, s) -> Q (fst (next_boot key d s)).
Proof.
  intros Hf H. unfold Model.next_boot. destruct (nb s) as [m|]; [|exact H].
  destruct (validate key d m) eqn:Ev; [exact H|].
  specialize (Hf m eq_refl Ev). destruct (fall_back key d s (m_num m)). exact Hf.
Qed.

Lemma rollback_loop_pres (Q : disk * pstate -> Prop) key l :
  (forall d s x, In x l -> Q (d, s) -> Q (fall_back key d s x)) ->
  forall d s, Q (d, s) -> Q (rollback_loop key d s l).
Proof.
  induction l as [|x l IH]; intros Hf d s H; [exact H|]. cbn.
  pose proof (Hf d s x (or_introl eq_refl) H) as H1. destruct (fall_back key d s x) as [d1 s1].
  apply IH; [|exact H1]. intros d2 s2 y Hy. apply Hf. right. exact Hy.
Qed.

Lemma next_boot_selected key d s d' s' n :
  next_boot key d s = (d', s', Some n) ->
  exists m, nb s' = Some m /\ m_num m = n /\ validate key d' m = true.
Proof.
  unfold Model.next_boot. destruct (nb s) as [m|] eqn:En; [|discriminate].
  destruct (validate key d m) eqn:Ev.
  - intros H. inversion H; subst. exists m. auto.
  - (* the selection fell back: it is now LB, which fall_back validated *)
    pose proof (fall_back_nb key d s (m_num m)) as Ht. rewrite <- fall_back_lb in Ht.
    pose proof (fall_back_lb_valid key d s (m_num m)) as Hv.
    destruct (fall_back key d s (m_num m)) as [d1 s1]. cbn [fst snd] in *.
    intros H. injection H as <- <- Hn.
    rewrite En in Ht. cbn [numeq] in Ht. rewrite N.eqb_refl in Ht.
    destruct (nb s1) as [x|]; [|discriminate]. injection Hn as <-.
    exists x. split; [reflexivity|]. split; [reflexivity|]. apply Hv. symmetry. exact Ht.
Qed.

Lemma next_boot_saved key d s d' s' r :
  next_boot key d s = (d', s', r) -> pj d = JOk s -> pj d' = JOk s'.
Proof.
  intros E H. change (pj (fst (d', s')) = JOk (snd (d', s'))).
  replace (d', s') with (fst (next_boot key d s)) by (rewrite E; reflexivity).
  apply next_boot_pres; [|exact H]. intros m _ _. apply fall_back_saved.
Qed.

Lemma next_boot_valid key d s m :
  nb s = Some m -> validate key d m = true -> next_boot key d s = (d, s, Some (m_num m)).
Proof. intros H Hv. unfold next_boot. rewrite H, Hv. reflexivity. Qed.

Lemma next_boot_none key d s : nb s = None -> next_boot key d s = (d, s, None).
Proof. intros H. unfold next_boot. rewrite H. reflexivity. Qed.

End Lemmas.
