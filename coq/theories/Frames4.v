(* Install selects (C09), already-installed offers (C09), rollbacks stick (C10),
   current patch (C18). *)
From UV Require Import Base Model PMLemmas Sections Inv Ban Handout Calls Frames2 Frames3.

Section Frames4.
Variable sha : bytes -> bytes.
Variable sigok : string -> string -> string -> bool.
Variable zdec : bytes -> bytes.
Variable base : bytes.

Notation validate := (validate sha sigok).
Notation cs_next := (cs_next sha sigok).
Notation cs_rollback := (cs_rollback sha sigok).
Notation should_install := (should_install sha sigok).
Notation do_check := (do_check sha sigok).
Notation do_update := (do_update sha sigok zdec base).
Notation step := (step sha sigok zdec base).
Notation stepw := (stepw sha sigok zdec base).
Notation final := (final sha sigok zdec base).
Notation along := (along sha sigok zdec base).
Notation inflate := (inflate zdec base).
Notation SelD := (SelD sha sigok).
Notation sec_disk := (sec_disk sha sigok).
Notation rolled := (rolled sha sigok).

(* C09 *)
Definition sig_verifies (c : cfg) (p : patch) (out : bytes) : Prop :=
  forall k, c_key c = Some k ->
            exists s, p_sig p = Some s /\ sigok k (hex_of_bytes (sha out)) s = true.

Theorem install_selects c d ch r dl d' log :
  stable (c_rel c) d ->
  do_update c d ch r dl = (d', UInstalled, log) ->
  exists rs p bdl out,
    r = Some rs /\ r_patch rs = Some p /\ dl = Some bdl /\ inflate bdl = Some out /\
    nb (load_p d') = Some (new_meta p out) /\
    (sig_verifies c p out -> cs_next c d' = (d', Some (p_num p))).
Proof.
  intros S H.
  destruct (installed_only_if_verified sha sigok zdec base c d ch r dl d' log H)
    as (rs & p & bdl & out & H1 & H2 & H3 & H4 & H5 & H6 & H7 & H8).
  exists rs, p, bdl, out. repeat split; auto.
  intros Hs.
  assert (S' : stable (c_rel c) d').
  { pose proof (secs_BM sha sigok c _ _ _ S (do_update_secs sha sigok zdec base c d ch r dl)) as B.
    rewrite H in B. exact (proj1 B). }
  unfold Model.cs_next. rewrite (norm_id c d' S').
  assert (V : validate (c_key c) d' (new_meta p out) = true).
  { unfold Model.validate. cbn [m_num new_meta]. rewrite H8. cbn [m_size new_meta]. rewrite N.eqb_refl. cbn.
    destruct (c_key c) as [k|] eqn:Ek; auto. destruct (Hs k Ek) as [s [E1 E2]].
    cbn [m_sig]. rewrite E1. exact E2. }
  rewrite (next_boot_valid sha sigok (c_key c) d' (load_p d') (new_meta p out) H7 V). reflexivity.
Qed.

Theorem already_installed c d ch rs p dl m :
  stable (c_rel c) d -> SelD SNB (c_key c) d m -> ~ In (m_num m) (bad (load_p d)) ->
  r_avail rs = true -> r_patch rs = Some p -> p_num p = m_num m -> not_listed (m_num m) rs ->
  snd (fst (do_update c d ch (Some rs) dl)) = UNoUpdate /\
  no_download (snd (do_update c d ch (Some rs) dl)) /\
  SelD SNB (c_key c) (fst (fst (do_update c d ch (Some rs) dl))) m.
Proof.
  intros S H Hb Ea Ep En Hl.
  (* after the rollbacks m is still selected and not banned: the selection check says "already" *)
  pose proof (fun l => not_listed_spec _ rs l Hl) as Hl'.
  destruct (check_secs_Kept sha sigok SNB c (Some rs) m d _ (rolled c d rs) Hl'
              (rollback_secs sha sigok c _ rs) (cleared_Kept sha sigok SNB c m d S H))
    as (S2 & H2 & _ & B2).
  assert (Esh : should_install c (rolled c d rs) (p_num p) = (rolled c d rs, ShAlready)).
  { unfold Model.should_install, cs_is_bad. rewrite (norm_id c _ S2), B2, En.
    destruct (inb (m_num m) (bad (load_p d))) eqn:E; [apply inb_In in E; contradiction|].
    rewrite (selected_is_reported sha sigok c _ m S2 H2), N.eqb_refl. reflexivity. }
  rewrite (update_refused sha sigok zdec base c d ch rs p dl _ ShAlready Ea Ep Esh) by discriminate.
  split; [reflexivity|]. split; [apply no_download_sent|exact H2].
Qed.

(* C10 *)
Definition gone_undisturbed (x : N) (w : world) (o : op) : Prop :=
  match o with
  | OUpdate _ r _ => snd (fst (step w o)) = RStatus 1 -> ~ installs r x
  | ODamage (DSetArt n _) => n <> x
  | ODamage (DSetPj _) => False
  | _ => True
  end.

Theorem gone_frame w o x :
  goneD (w_disk w) x -> gone_undisturbed x w o -> goneD (w_disk (stepw w o)) x.
Proof.
  intros H Hu. apply (step_inv sha sigok zdec base (fun d => goneD d x)); [| |exact H].
  - intros g -> [Ha Hn]. destruct g; cbn in *; try contradiction; try (split; assumption).
    + destruct (arts (w_disk w) n) eqn:E; [|split; assumption]. split; [|exact Hn]. cbn. unfold upd_art.
      destruct (N.eqb_spec x n); [subst; congruence|exact Ha].
    + split; [|exact Hn]. cbn. unfold upd_art. destruct (N.eqb x n); auto.
    + split; [|exact Hn]. cbn. rewrite upd_art_other; auto.
  - intros c k d Ha Hk G. apply sec_goneD; [exact G|]. intros p out -> Ei.
    (* an install that goes through gives the update its status *)
    destruct (call_sec_install sha sigok zdec base _ _ _ _ _ _ Hk) as (ch & r & dl & -> & (rs & -> & _ & Ep) & _ & Est).
    rewrite Ei in Est.
    intros ->. apply Hu; [|exists rs, p; auto].
    rewrite (step_update_status sha sigok zdec base w c ch (Some rs) dl Ha), <- Est. reflexivity.
Qed.

Lemma should_install_goneD c d n x : goneD d x -> goneD (fst (should_install c d n)) x.
Proof.
  apply (secs_inv sha sigok c _ (fun y => goneD y x)) with (2 := should_install_secs sha sigok c d n).
  intros k y Hk G. apply sec_goneD; [exact G|]. intros p out ->. destruct Hk; discriminate.
Qed.

Theorem rollback_now_check c d ch rs l x :
  r_rb rs = Some l -> In x l -> goneD (fst (fst (do_check c d ch (Some rs)))) x.
Proof.
  intros El Hin. unfold Model.do_check. rewrite El.
  pose proof (cs_rollback_makes_goneD sha sigok c d l x Hin) as H1.
  destruct (r_patch rs) as [p|]; cbn [fst]; [|exact H1].
  pose proof (should_install_goneD c (cs_rollback c d l) (p_num p) x H1) as H2.
  destruct (should_install c (cs_rollback c d l) (p_num p)). exact H2.
Qed.

Theorem rollback_now_update c d ch rs dl l x :
  r_rb rs = Some l -> In x l ->
  (snd (fst (do_update c d ch (Some rs) dl)) = UInstalled -> ~ installs (Some rs) x) ->
  goneD (fst (fst (do_update c d ch (Some rs) dl))) x.
Proof.
  intros El Hin.
  assert (H1 : goneD (rolled c d rs) x)
    by (unfold Sections.rolled; rewrite El; apply cs_rollback_makes_goneD, Hin).
  destruct (do_update_answer sha sigok zdec base c d ch rs dl) as [Ea|Ea Ep|p sh Ea Ep Es Hs|p Ea Ep Es Eg|p out Ea Ep Es Eg];
    cbn [fst snd]; intros Hx; auto using should_install_goneD.
  apply (sec_goneD sha sigok c (SInstall p out)); [apply should_install_goneD, H1|].
  intros ? ? E Ei. injection E as <- <-. intros ->. apply (Hx Ei). exists rs, p. auto.
Qed.

Theorem gone_persists x ops : forall w,
  goneD (w_disk w) x -> along (gone_undisturbed x) w ops -> goneD (w_disk (final w ops)) x.
Proof.
  intros w H HA.
  apply (along_inv sha sigok zdec base (fun w => goneD (w_disk w) x) (gone_undisturbed x)); auto.
  intros w0 o Hq Hp. apply gone_frame; auto.
Qed.

Theorem gone_not_reported c d x : goneD d x -> snd (cs_next c d) <> Some x.
Proof.
  intros H E. pose proof (sec_goneD sha sigok c SNext d x H) as G. cbn [Sections.sec_disk] in G.
  destruct (cs_next c d) as [d1 r] eqn:E1. cbn [fst snd] in *. subst r.
  destruct G as [Ha _]; [intros ? ? E'; discriminate E'|].
  destruct (cs_next_intact sha sigok c d d1 x E1) as (m & b & _ & _ & A & _). congruence.
Qed.

(* C18 *)
Definition cbD (d : disk) : option meta := cb (load_p d).

Lemma sec_cb_none c k d : k <> SStart -> cbD d = None -> cbD (sec_disk c k d) = None.
Proof.
  intros Hk H. unfold cbD in *. apply (sec_lift sha sigok (fun _ s => cb s = None)); [auto|].
  assert (H0 : cb (load_p (norm c d)) = None) by (destruct (norm_cases c d) as [-> | ->]; [exact H|reflexivity]).
  destruct k; try contradiction; try (rewrite sec_pm_cb; [exact H0|exact I]); cbn [sec_pm].
  - unfold boot_success. rewrite H0. exact H0.
  - rewrite H0. exact H0.
Qed.

(* the patch handed to the engine for this launch: still booting, or promoted to last good *)
Definition Current (key : option string) (d : disk) (m : meta) : Prop :=
  SelD SCB key d m \/ (cbD d = None /\ SelD SLB key d m).

Definition cur_undisturbed (m : meta) (w : world) (o : op) : Prop :=
  art_damage_other (m_num m) o /\
  match o with
  | OStart | OFailure => False
  | OInit _ _ _ => w_cfg w <> None
  | OCheck _ (Some rs) => not_listed (m_num m) rs
  | OUpdate _ r dl => (forall rs, r = Some rs -> not_listed (m_num m) rs) /\
                      install_ok zdec base m (w_disk w) r dl
  | _ => True
  end.

Theorem current_reported c d m :
  stable (c_rel c) d -> Current (c_key c) d m -> snd (cs_current c d) = Some (m_num m).
Proof.
  intros S H. unfold Model.cs_current. cbn. rewrite (norm_id c d S).
  destruct H as [(_ & G & _)|[Hc (_ & G & _)]]; cbn in G.
  - rewrite G. reflexivity.
  - unfold cbD in Hc. rewrite Hc, G. reflexivity.
Qed.

Lemma cs_success_noop c d : stable (c_rel c) d -> cbD d = None -> fst (Model.cs_success c d) = d.
Proof. intros S H. unfold Model.cs_success. rewrite (norm_id c d S). unfold cbD in H. rewrite H. reflexivity. Qed.

Theorem Current_frame r key w o m :
  within r w o -> keyed key w o -> stable r (w_disk w) ->
  Current key (w_disk w) m -> cur_undisturbed m w o ->
  Current key (w_disk (stepw w o)) m.
Proof.
  intros Hw Hk S [H|[Hc H]] [Hd Hu].
  - (* still booting: a success report promotes it, every other call leaves it booting *)
    destruct o; try contradiction;
      try (left; apply (Sel_frame sha sigok zdec base SCB r key); auto; split; auto; fail).
    unfold Frames3.stepw.
    destruct (step_disk_view sha sigok zdec base w OSuccess) as [g E| |c k Ha E|? ? ? ? E|? ? ? ? ? E];
      try discriminate E; [left; exact H|].
    injection E as <-. rewrite <- (actor_rel r w _ c Hw Ha) in S.
    rewrite <- (actor_key key w _ c Hk Ha) in *. right. split.
    + apply (sec_lift sha sigok (fun _ s => cb s = None)); [auto|]. cbn [sec_pm]. unfold boot_success.
      destruct (cb (load_p (norm c (w_disk w)))) eqn:Ec; [reflexivity|exact Ec].
    + apply cs_success_promotes; assumption.
  - (* promoted, nothing booting: nothing but a launch start sets the booting record *)
    right. split.
    + apply (step_inv sha sigok zdec base (fun d => cbD d = None)); [| |exact Hc].
      * intros g -> E. destruct Hw as [_ Hg]. destruct g; try contradiction; cbn [apply_damage];
          try (destruct (arts _ n)); exact E.
      * intros c k d Ha Hs. apply sec_cb_none. intros ->.
        unfold call_sec in Hs. destruct o; try discriminate Hs; try contradiction;
          try (destruct Hs as [E|E]; discriminate E).
    + apply (Sel_frame sha sigok zdec base SLB r key); auto. split; auto.
      destruct o; try contradiction; auto. intros b Hb. unfold cbD in Hc. congruence.
Qed.

Theorem current_persists r key m ops : forall w,
  InRel r w -> Current key (w_disk w) m ->
  along (fun w o => within r w o /\ keyed key w o /\ cur_undisturbed m w o) w ops ->
  Current key (w_disk (final w ops)) m.
Proof.
  apply (persists sha sigok zdec base r key (fun d => Current key d m) (cur_undisturbed m)).
  intros w o. apply Current_frame.
Qed.

Theorem current_after_restart c d :
  cbD (norm c d) = None -> snd (cs_current c d) = onum (lb (load_p (norm c d))).
Proof. intros H. unfold Model.cs_current. cbn. unfold cbD in H. rewrite H. reflexivity. Qed.

End Frames4.
