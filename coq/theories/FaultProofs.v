(* C04: what every system-call prefix (process death) and every single failing call
   of every operation leaves behind, and what the next launch makes of it. *)
From UV Require Import Base Model PMLemmas Sections Inv Ban Handout Fault.

Definition disk_of {A} (r : outcome A * nat * disk) : disk := snd r.
Definition out_of {A} (r : outcome A * nat * disk) : outcome A := fst (fst r).

(* [af]: may a call fail (FailAt), or only the process die *)
Definition okpl (af : bool) (pl : plan) : Prop :=
  match pl with FailAt _ _ => af = true | _ => True end.

Lemma okpl_true pl : okpl true pl.
Proof. destruct pl; reflexivity || exact Logic.I. Qed.

(* the triples below do not say where the step counter stands; [load_other_release], which counts the reads
   before create_new, steps through loadM with these two *)
Lemma bind_unf {A B} (m : M A) (f : A -> M B) pl c0 d :
  bind m f pl c0 d = match m pl c0 d with
                     | (Ret a, c', d') => f a pl c' d'
                     | (Err, c', d') => (Err, c', d')
                     | (Died, c', d') => (Died, c', d')
                     end.
Proof. reflexivity. Qed.

Lemma rd_cases pl c0 d : rd pl c0 d = (Died, c0, d) \/ exists b, rd pl c0 d = (Ret b, S c0, d).
Proof.
  unfold rd. destruct pl as [|k s|k s]; [right; exists true; reflexivity| |];
    destruct (Nat.eqb c0 k); eauto.
Qed.

Definition tri {A} (af : bool) (Pre : disk -> Prop) (m : M A) (Q : A -> disk -> Prop) (E D : disk -> Prop) : Prop :=
  forall pl c d, okpl af pl -> Pre d ->
    match m pl c d with
    | (Ret a, _, d') => Q a d'
    | (Err, _, d') => E d'
    | (Died, _, d') => D d'
    end.

Lemma tri_inv {A af Pre} {m : M A} {Q E D pl c d o c' d'} :
  tri af Pre m Q E D -> okpl af pl -> Pre d -> m pl c d = (o, c', d') ->
  match o with Ret a => Q a d' | Err => E d' | Died => D d' end.
Proof. intros H Hp Hd Em. specialize (H pl c d Hp Hd). rewrite Em in H. exact H. Qed.

Lemma tri_any {A} af Pre (m : M A) : tri af Pre m (fun _ _ => True) (fun _ => True) (fun _ => True).
Proof. intros pl c d _ _. destruct (m pl c d) as [[[a| |] c'] d']; exact Logic.I. Qed.

Lemma tri_conseq {A} af (Pre Pre' : disk -> Prop) (m : M A) (Q Q' : A -> disk -> Prop) E D :
  tri af Pre' m Q' E D -> (forall d, Pre d -> Pre' d /\ forall a d', Q' a d' -> Q a d') -> tri af Pre m Q E D.
Proof.
  intros H K pl c d Hp Hd. destruct (K d Hd) as [Hd' HQ]. specialize (H pl c d Hp Hd').
  destruct (m pl c d) as [[[a| |] c'] d']; auto.
Qed.

Section Tri.
Context {af : bool} {E D : disk -> Prop}.
Implicit Type Pre : disk -> Prop.

Lemma tri_ret Pre {A} (a : A) (Q : A -> disk -> Prop) : (forall d, Pre d -> Q a d) -> tri af Pre (ret a) Q E D.
Proof. intros H pl c d _. exact (H d). Qed.

Lemma tri_fail Pre {A} (Q : A -> disk -> Prop) : (forall d, Pre d -> E d) -> tri af Pre fail Q E D.
Proof. intros H pl c d _. exact (H d). Qed.

Lemma tri_get Pre (Q : disk -> disk -> Prop) : (forall d, Pre d -> Q d d) -> tri af Pre get Q E D.
Proof. intros H pl c d _. exact (H d). Qed.

Lemma tri_touch Pre f (Q : unit -> disk -> Prop) : (forall d, Pre d -> Q tt (f d)) -> tri af Pre (touch f) Q E D.
Proof. intros H pl c d _. exact (H d). Qed.

Lemma tri_bind Pre {A B} (m : M A) (f : A -> M B) Q1 Q :
  tri af Pre m Q1 E D -> (forall a, tri af (Q1 a) (f a) Q E D) -> tri af Pre (bind m f) Q E D.
Proof.
  intros Hm Hf pl c d Hp Hd. specialize (Hm pl c d Hp Hd). unfold bind.
  destruct (m pl c d) as [[[a| |] c'] d']; [exact (Hf a pl c' d' Hp Hm)|exact Hm|exact Hm].
Qed.

Lemma tri_ignore Pre {A} (m : M A) Q0 E0 (Q : unit -> disk -> Prop) :
  tri af Pre m Q0 E0 D -> (forall a d, Q0 a d -> Q tt d) -> (forall d, E0 d -> Q tt d) ->
  tri af Pre (ignore_err m) Q E D.
Proof.
  intros Hm HQ HE pl c d Hp Hd. specialize (Hm pl c d Hp Hd). unfold ignore_err.
  destruct (m pl c d) as [[[a| |] c'] d']; eauto.
Qed.

Lemma tri_attempt Pre {A} (m : M A) Q0 E0 (Q : bool -> disk -> Prop) :
  tri af Pre m Q0 E0 D -> (forall a d, Q0 a d -> Q true d) -> (forall d, E0 d -> Q false d) ->
  tri af Pre (attempt m) Q E D.
Proof.
  intros Hm HQ HE pl c d Hp Hd. specialize (Hm pl c d Hp Hd). unfold attempt.
  destruct (m pl c d) as [[[a| |] c'] d']; eauto.
Qed.

(* the three kinds of system call: the only rules that look at the plan and the step counter *)
Lemma tri_mut Pre f g (Q : unit -> disk -> Prop) :
  (forall d, Pre d -> Q tt (f d)) -> (forall sub d, Pre d -> D (g sub d)) ->
  (af = true -> forall sub d, Pre d -> E (g sub d)) ->
  tri af Pre (mut f g) Q E D.
Proof.
  intros Hf Hg He pl c d Hp Hd. unfold mut.
  destruct pl as [|k sub|k sub]; [|destruct (Nat.eqb c k)..]; auto.
Qed.

Lemma tri_mut_swallow Pre f g (Q : unit -> disk -> Prop) :
  (forall d, Pre d -> Q tt (f d)) -> (forall d, Pre d -> D d /\ D (g d)) ->
  (af = true -> forall d, Pre d -> Q tt (g d)) ->
  tri af Pre (mut_swallow f g) Q E D.
Proof.
  intros Hf Hg He pl c d Hp Hd. unfold mut_swallow.
  destruct pl as [|k sub|k sub]; [|destruct (Nat.eqb c k)..]; auto.
  destruct (N.eqb (sub 0) 0); apply Hg, Hd.
Qed.

Lemma tri_rd Pre (Q : bool -> disk -> Prop) :
  (forall d, Pre d -> Q true d) -> (forall d, Pre d -> D d) -> (af = true -> forall d, Pre d -> Q false d) ->
  tri af Pre rd Q E D.
Proof.
  intros Ht Hd' Hf pl c d Hp Hd. unfold rd.
  destruct pl as [|k sub|k sub]; [|destruct (Nat.eqb c k)..]; auto.
Qed.

(* disk_io::write of a state file (write_pj, write_sj): it leaves the old file, a torn file or the new file;
   a caller that is told of a failure has the old file, one that is not told may have the torn one *)
Lemma tri_write Pre {X} (setf : disk -> jfile X -> disk) (v : X) (Q : unit -> disk -> Prop) :
  (forall d x y, setf (setf d x) y = setf d y) ->
  (forall d, Pre d -> Q tt (setf d (JOk v))) -> (forall d, Pre d -> D d) -> (forall d, Pre d -> D (setf d JGarbage)) ->
  (af = true -> forall d, Pre d -> E d /\ Q tt (setf d JGarbage)) ->
  tri af Pre (atomic (fun d => setf d JGarbage) ;;; mut_swallow (fun d => setf d (JOk v)) (fun d => setf d JGarbage))
      Q E D.
Proof.
  intros Hs Hnew Hold Htorn Hf. apply tri_bind with (Q1 := fun _ d1 => exists d, Pre d /\ d1 = setf d JGarbage).
  - apply tri_mut; [eauto|auto|intros Haf _ d Hd; apply (Hf Haf), Hd].
  - intros _. apply tri_mut_swallow; [intros d1 [d [Hd ->]]..|intros Haf d1 [d [Hd ->]]]; rewrite ?Hs; auto.
    apply (Hf Haf), Hd.
Qed.

End Tri.

(* the triple whose precondition and two live postconditions are one invariant I (pres_tri); S holds on the disk a
   dead process leaves.  Of a result only a fact G that does not mention the disk is kept: that is what lets
   [pres_bind] hand G a to the continuation as a hypothesis. *)
Definition pres {A} (af : bool) (I S : disk -> Prop) (G : A -> Prop) (m : M A) : Prop :=
  forall pl c d, okpl af pl -> I d ->
    match out_of (m pl c d) with
    | Died => S (disk_of (m pl c d))
    | Ret a => I (disk_of (m pl c d)) /\ G a
    | Err => I (disk_of (m pl c d))
    end.

Lemma pres_tri {A} af I S G (m : M A) : pres af I S G m <-> tri af I m (fun a d => I d /\ G a) I S.
Proof.
  split; intros H pl c d Hp Hi; specialize (H pl c d Hp Hi); unfold out_of, disk_of in *;
    destruct (m pl c d) as [[[a| |] c'] d']; exact H.
Qed.

Section Rules.
Context {af : bool} {I S : disk -> Prop}.
Hypothesis IS : forall d, I d -> S d.

Lemma pres_bind {A B} (G : A -> Prop) (H : B -> Prop) (m : M A) (f : A -> M B) :
  pres af I S G m -> (forall a, G a -> pres af I S H (f a)) -> pres af I S H (bind m f).
Proof.
  intros Hm Hf. apply pres_tri. eapply tri_bind; [apply pres_tri, Hm|].
  intros a pl c d Hp [Hi Ga]. exact (proj1 (pres_tri _ _ _ _ _) (Hf a Ga) pl c d Hp Hi).
Qed.

Lemma pres_ret {A} (G : A -> Prop) a : G a -> pres af I S G (ret a).
Proof. intros H. apply pres_tri, tri_ret. auto. Qed.

Lemma pres_done {A} (a : A) : pres af I S (fun _ => True) (ret a).
Proof. apply pres_ret. exact Logic.I. Qed.

Lemma pres_map {A B} (G : A -> Prop) (m : M A) (g : A -> B) :
  pres af I S G m -> pres af I S (fun _ => True) (x <- m ;; ret (g x)).
Proof. intros Hm. eapply pres_bind; [exact Hm|]. intros a _. apply pres_done. Qed.

Lemma pres_fail {A} (G : A -> Prop) : pres af I S G (@fail A).
Proof. apply pres_tri, tri_fail. auto. Qed.

Lemma pres_get : pres af I S I get.
Proof. apply pres_tri, tri_get. auto. Qed.

Lemma pres_touch f : (forall d, I d -> I (f d)) -> pres af I S (fun _ => True) (touch f).
Proof. intros. apply pres_tri, tri_touch. auto. Qed.

Lemma pres_ignore {A} (G : A -> Prop) m : pres af I S G m -> pres af I S (fun _ => True) (ignore_err m).
Proof. intros Hm. apply pres_tri. eapply tri_ignore; [apply pres_tri, Hm| |]; cbv beta; tauto. Qed.

Lemma pres_attempt {A} (G : A -> Prop) m : pres af I S G m -> pres af I S (fun _ => True) (attempt m).
Proof. intros Hm. apply pres_tri. eapply tri_attempt; [apply pres_tri, Hm| |]; cbv beta; tauto. Qed.

Lemma pres_mut f g :
  (forall d, I d -> I (f d)) -> (forall sub d, I d -> S (g sub d)) ->
  (af = true -> forall sub d, I d -> I (g sub d)) ->
  pres af I S (fun _ => True) (mut f g).
Proof. intros. apply pres_tri, tri_mut; auto. Qed.

Lemma pres_set X : I X -> pres af I S (fun _ => True) (atomic (fun _ => X)).
Proof. intros. apply pres_mut; auto. Qed.

Lemma pres_write {X} (setf : disk -> jfile X -> disk) (v : X) :
  (forall d x y, setf (setf d x) y = setf d y) ->
  (forall d, I d -> I (setf d (JOk v))) -> (forall d, I d -> S (setf d JGarbage)) ->
  (af = true -> forall d, I d -> I (setf d JGarbage)) ->
  pres af I S (fun _ => True)
       (atomic (fun d => setf d JGarbage) ;;; mut_swallow (fun d => setf d (JOk v)) (fun d => setf d JGarbage)).
Proof. intros. apply pres_tri, tri_write; auto. Qed.

(* death before the read leaves a disk satisfying I: hence IS *)
Lemma pres_rd : pres af I S (fun _ => True) rd.
Proof. apply pres_tri, tri_rd; auto. Qed.

Lemma pres_rd_nofail : af = false -> pres af I S (fun b => b = true) rd.
Proof. intros Haf. apply pres_tri, tri_rd; auto. congruence. Qed.

Lemma pres_rm_art n :
  (forall d v, I d -> I (set_arts d (upd_art (arts d) n v))) -> pres af I S (fun _ => True) (rm_art n).
Proof.
  intros H. unfold rm_art. eapply pres_bind; [apply pres_get|intros d Hd].
  destruct (arts d n) as [[|b]|].
  - apply pres_set, H, Hd.
  - eapply pres_bind; [|intros _ _]; apply pres_set, H, Hd.
  - apply pres_touch. intros _ _. apply H, Hd.
Qed.

Lemma pres_disk {A} {G : A -> Prop} {m : M A} pl c d :
  pres af I S G m -> okpl af pl -> I d -> S (disk_of (m pl c d)).
Proof.
  intros H Hp Hi. specialize (H pl c d Hp Hi).
  destruct (out_of (m pl c d)); [apply IS, H|apply IS, H|exact H].
Qed.

End Rules.

(* [step rule as a Ha] takes the next action off a sequence: [rule] proves the action, and the rest goes on
   with its result [a] and [Ha : G a] *)
Tactic Notation "step" tactic3(rule) "as" simple_intropattern(a) simple_intropattern(Ha) :=
  eapply pres_bind; [rule|intros a Ha].

(* the first write of create_new_and_save truncates patches_state.json: from then on load_p gives pempty,
   whatever becomes of state.json; until then the disk is as it was *)
Lemma create_new_leaves rr (I : disk -> Prop) :
  (forall d, load_p d = pempty -> I d) -> pres true I I (fun _ => True) (create_newM rr).
Proof.
  intros He. apply pres_tri. unfold create_newM.
  apply tri_bind with (Q1 := fun _ => I); [apply tri_rd; auto|intros _].
  apply tri_bind with (Q1 := fun (ok : bool) d => if ok then load_p d = pempty else I d).
  - apply tri_attempt with (Q0 := fun _ d => load_p d = pempty) (E0 := I); [|auto..].
    apply tri_bind with (Q1 := fun _ d => load_p d = pempty); [|intros _].
    + apply (tri_write _ set_pj); [reflexivity|..]; auto.
    + apply tri_mut; auto.
  - intros [|]; [|apply tri_ret; auto].
    apply tri_ignore with (Q0 := fun _ => I) (E0 := I); [|auto..].
    apply (tri_write _ set_sj); [reflexivity|..]; auto.
Qed.

(* the patch state try_fall_back_from_patch ends with; [u]: LB exists, is not the bad patch and validated *)
Definition fb_state (s : pstate) (b : N) (u : bool) : pstate :=
  let nb1 := if numeq (nb s) b then None else nb s in
  if u then {| lb := lb s; nb := match nb1 with None => lb s | Some x => Some x end; cb := cb s; bad := bad s |}
  else {| lb := None; nb := nb1; cb := cb s; bad := bad s |}.

(* b itself may be on the ban list: NB stops being b, and a usable LB is not b *)
Lemma fb_Iban s b u :
  (forall k, In k (bad s) ->
     (k = b \/ numeq (nb s) k = false) /\ (u = true -> numeq (lb s) k = false) /\ numeq (cb s) k = false) ->
  Iban (fb_state s b u).
Proof.
  intros H k Hk. replace (bad (fb_state s b u)) with (bad s) in Hk by (destruct u; reflexivity).
  destruct (H k Hk) as (A & B & C).
  assert (Hnb : numeq (if numeq (nb s) b then None else nb s) k = false).
  { destruct (numeq (nb s) b) eqn:En; [reflexivity|]. destruct A as [->|A]; assumption. }
  unfold fb_state. destruct u; cbn [lb nb cb]; [|auto].
  split; [|auto]. destruct (if numeq (nb s) b then None else nb s); auto.
Qed.

(* [Gd s]: I-ban plus a monotone condition on the ban list.  [Rs s]: state.json may hold s; a section writes back the
   release it loaded with a queue of its own making (one event more, or none), hence every queue in [GLd].  The alive
   invariant I looks at the two state files only; their writes and the initial load are assumed to preserve I and
   leave S at death; everything built from them then does too. *)
Section Gen.
Variable sha : bytes -> bytes.
Variable sigok : string -> string -> string -> bool.
Variable zdec : bytes -> bytes.
Variable base : bytes.
Variable af : bool.
Variables I S : disk -> Prop.
Variable Extra : list N -> Prop.
Variable Rs : sstate -> Prop.
Hypothesis Extra_mono : forall l l', incl l l' -> Extra l -> Extra l'.
Hypothesis IS_gen : forall d, I d -> S d.
Definition Gd (s : pstate) : Prop := Iban s /\ Extra (bad s).
Definition GLd (st : sstate * pstate) : Prop := Gd (snd st) /\ forall q, Rs {| rel := rel (fst st); evq := q |}.
Notation P := (pres af I S).
Hypothesis H_wpj : forall s, Gd s -> P (fun _ => True) (write_pj s).
Hypothesis H_wsj : forall s, Rs s -> P (fun _ => True) (write_sj s).
Hypothesis I_files : forall d d', sj d' = sj d -> pj d' = pj d -> I d -> I d'.
Variable c : cfg.
Hypothesis H_load : P GLd (loadM c).

Lemma I_arts d a : I d -> I (set_arts d a).
Proof. apply I_files; reflexivity. Qed.

Lemma G_rm_art n : P (fun _ => True) (rm_art n).
Proof. apply (pres_rm_art IS_gen). intros d v. apply I_arts. Qed.

Lemma G_validate key m : P (fun _ => True) (validateM sha sigok key m).
Proof.
  unfold validateM. step (apply pres_get) as d _.
  destruct key as [k|]; [|apply pres_done]. destruct (arts d (m_num m)) as [[|b]|]; try apply pres_done.
  destruct (m_sig m); [|apply pres_done]. destruct (N.eqb (blen b) (m_size m)); [|apply pres_done].
  eapply pres_map, pres_rd, IS_gen.
Qed.

Lemma fb_Gd s b u : Gd s -> Gd (fb_state s b u).
Proof.
  intros [H He]. split; [|destruct u; exact He].
  apply fb_Iban. intros k Hk. destruct (H k Hk) as (A & B & C). auto.
Qed.

Lemma fb_Gd_ban s n u :
  Gd s -> (u = true -> numeq (lb s) n = false) ->
  Gd (fb_state {| lb := lb s; nb := nb s; cb := None; bad := add_bad n (bad s) |} n u).
Proof.
  intros [H He] Hu. split.
  - apply fb_Iban. cbn [lb nb cb bad]. intros k Hk. apply add_bad_In in Hk.
    destruct Hk as [->|Hk]; [auto|]. destruct (H k Hk) as (A & B & C). auto.
  - apply (Extra_mono (bad s)); [|exact He]. destruct u; intros k Hk; apply add_bad_In; auto.
Qed.

Lemma G_fall_back key s b :
  (forall u, (u = true -> numeq (lb s) b = false) -> Gd (fb_state s b u)) ->
  P (fun r => Gd (fst r)) (fall_backM sha sigok key s b).
Proof.
  intros H.
  assert (Hw : forall u, (u = true -> numeq (lb s) b = false) ->
            P (fun r => Gd (fst r)) (ok <- attempt (write_pj (fb_state s b u)) ;; ret (fb_state s b u, ok))).
  { intros u Hu. step (eapply pres_attempt, H_wpj, H, Hu) as ok _. apply pres_ret, H, Hu. }
  unfold fall_backM. step (eapply pres_ignore, G_rm_art) as _ _.
  destruct (lb s) as [l|] eqn:El; [|apply (Hw false); discriminate].
  step (destruct (negb (N.eqb (m_num l) b)); [apply G_validate|apply pres_done]) as v _.
  destruct (negb (N.eqb (m_num l) b) && v) eqn:E.
  - rewrite <- El. apply (Hw true). intros _.
    apply andb_prop in E. apply negb_true_iff, E.
  - step (eapply pres_ignore, G_rm_art) as _ _. apply (Hw false). discriminate.
Qed.

Lemma G_next_boot key s : Gd s -> P (fun r => Gd (fst r)) (next_bootM sha sigok key s).
Proof.
  intros H. unfold next_bootM. destruct (nb s) as [m|]; [|apply pres_ret; exact H].
  step (apply G_validate) as v _. destruct v; [apply pres_ret; exact H|].
  step (apply G_fall_back; intros; apply fb_Gd, H) as r Hr. apply pres_ret. exact Hr.
Qed.

Lemma G_boot_failure key s n : Gd s -> P (fun r => Gd (fst r)) (boot_failureM sha sigok key s n).
Proof. intros H. apply G_fall_back. intros u Hu. apply fb_Gd_ban; assumption. Qed.

Lemma G_add_patch s n b h sg : ~ In n (bad s) -> Gd s -> P Gd (add_patchM s n b h sg).
Proof.
  intros Hn [H He]. unfold add_patchM. step (apply pres_get) as d Hd.
  step (destruct (arts d n); [apply pres_done|apply (pres_set IS_gen), I_arts, Hd]) as _ _.
  step (apply (pres_set IS_gen), I_arts, Hd) as _ _.
  eapply pres_bind; [|intros _ _].
  { destruct (nb s) as [x|]; [destruct (lb s) as [l|]|]; try apply pres_done.
    destruct (_ && _); [eapply pres_ignore, G_rm_art|apply pres_done]. }
  (* the state add_patch returns does not depend on the disk *)
  assert (Hs : Gd (snd (add_patch empty_disk s n b h sg))) by (split; [apply add_patch_Iban; assumption|exact He]).
  step (apply H_wpj; exact Hs) as _ _. apply pres_ret. exact Hs.
Qed.

Lemma G_cs_next : P (fun _ => True) (cs_nextM sha sigok c).
Proof. unfold cs_nextM. step (apply H_load) as st [Hg _]. eapply pres_map, G_next_boot, Hg. Qed.

Lemma G_cs_start : P (fun _ => True) (cs_startM sha sigok c).
Proof.
  unfold cs_startM. step (apply H_load) as st [Hg _]. step (apply G_next_boot, Hg) as r [Hib He].
  destruct (snd r); [|apply pres_done].
  apply H_wpj. split; [|exact He].
  intros k Hk. cbn in *. destruct (Hib k Hk) as (A & B & C). auto.
Qed.

Lemma G_sweep s n : P (fun _ => True) (sweepM s n).
Proof.
  eapply pres_ignore, pres_mut; [intros d|intros sub d Hd; apply IS_gen; revert Hd|intros _ sub d];
    apply I_files; reflexivity.
Qed.

Lemma G_cs_success : P (fun _ => True) (cs_successM c).
Proof.
  unfold cs_successM. step (apply H_load) as st [[Hib He] _].
  destruct (cb (snd st)) as [b|] eqn:E; [|apply pres_done].
  step (apply G_sweep) as _ _. eapply pres_map, H_wpj. split; [|exact He].
  intros k Hk. cbn in *. destruct (Hib k Hk) as (A & B & C). rewrite E in C. auto.
Qed.

Lemma G_cs_failure : P (fun _ => True) (cs_failureM sha sigok c).
Proof.
  unfold cs_failureM. step (apply H_load) as st [Hg Hr].
  destruct (cb (snd st)) as [b|]; [|apply pres_fail].
  step (eapply pres_ignore, G_boot_failure, Hg) as _ _. apply H_wsj, Hr.
Qed.

Lemma G_cs_init_recover : P (fun _ => True) (cs_init_recoverM sha sigok c).
Proof.
  unfold cs_init_recoverM. step (apply H_load) as st [Hg Hr].
  destruct (cb (snd st)) as [b|]; [|apply pres_done].
  step (apply G_boot_failure, Hg) as r _.
  destruct (snd r); [apply H_wsj, Hr|apply pres_fail].
Qed.

Lemma G_rollback_loop key l : forall s, Gd s -> P Gd (rollback_loopM sha sigok key s l).
Proof.
  induction l as [|n l IH]; intros s H; cbn [rollback_loopM]; [apply pres_ret; exact H|].
  step (apply G_fall_back; intros; apply fb_Gd, H) as x Hx. destruct (snd x); [apply IH; exact Hx|apply pres_fail].
Qed.

Lemma G_cs_rollback l : P (fun _ => True) (cs_rollbackM sha sigok c l).
Proof. unfold cs_rollbackM. step (apply H_load) as st [Hg _]. eapply pres_map, G_rollback_loop, Hg. Qed.

Lemma G_cs_clear : P (fun _ => True) (cs_clear_eventsM c).
Proof. unfold cs_clear_eventsM. step (apply H_load) as st [_ Hr]. eapply pres_ignore, H_wsj, Hr. Qed.

Lemma G_cs_install p b : P (fun _ => True) (cs_installM c p b).
Proof.
  unfold cs_installM. step (apply H_load) as st [Hg _].
  destruct (inb (p_num p) (bad (snd st))) eqn:E; [apply pres_done|].
  eapply pres_map, G_add_patch; [|exact Hg]. intros Hin. apply inb_In in Hin. congruence.
Qed.

Lemma G_should_install n : P (fun _ => True) (should_installM sha sigok c n).
Proof.
  unfold should_installM, cs_is_badM. step (eapply pres_map, H_load) as b _. destruct b; [apply pres_done|].
  eapply pres_map, G_cs_next.
Qed.

Lemma G_rollbacks (o : option (list N)) :
  P (fun _ => True) (match o with Some l => cs_rollbackM sha sigok c l | None => ret tt end).
Proof. destruct o; [apply G_cs_rollback|apply pres_done]. Qed.

Lemma G_do_check r : P (fun _ => True) (do_checkM sha sigok c r).
Proof.
  unfold do_checkM. destruct r as [rs|]; [|apply pres_fail].
  step (apply G_rollbacks) as _ _. destruct (r_patch rs); [|apply pres_done].
  eapply pres_map, G_should_install.
Qed.

(* the download directory is not part of the disk: its steps preserve everything *)
Lemma G_dstep : P (fun _ => True) dstep.
Proof. apply pres_mut; auto. Qed.

(* what download_to_path + inflate hand over when they return Ok: the inflated output - or, if the write at
   the BufWriter's drop failed silently, the part io::copy had already handed to the file (8192 is the capacity
   BufWriter::new gives the writer of updater.rs::inflate) *)
Lemma G_download bdl :
  P (fun fileb => exists out, inflate zdec base bdl = Some out /\ (fileb = out \/ fileb = flushed_prefix out))
    (downloadM zdec base bdl).
Proof.
  unfold downloadM. do 4 step (apply G_dstep) as _ _.
  destruct (inflate zdec base bdl) as [out|]; [|apply pres_fail].
  step (destruct (8192 <=? blen out); [apply G_dstep|apply pres_done]) as _ _.
  step (apply (pres_rd IS_gen)) as ok _. apply pres_ret. exists out. destruct ok; auto.
Qed.

Lemma G_do_update r dl : P (fun _ => True) (do_updateM sha sigok zdec base c r dl).
Proof.
  unfold do_updateM, cs_copy_eventsM. step (eapply pres_map, H_load) as _ _. step (apply G_cs_clear) as _ _.
  destruct r as [rs|]; [|apply pres_fail].
  step (apply G_rollbacks) as _ _.
  destruct (negb (r_avail rs)); [apply pres_done|].
  destruct (r_patch rs) as [p|]; [|apply pres_fail].
  step (apply G_should_install) as sh _.
  destruct sh; try apply pres_done.
  destruct dl as [bdl|]; [|apply pres_fail].
  step (apply G_download) as fileb _.
  destruct (hash_ok sha fileb (p_hash p)); [apply G_cs_install|apply pres_fail].
Qed.

Theorem G_calls o : P (fun _ => True) (callM sha sigok zdec base c o) /\ P (fun _ => True) (initM sha sigok c).
Proof.
  split; [|eapply pres_map, pres_attempt, G_cs_init_recover].
  unfold callM. destruct o; try apply pres_done; eapply pres_map.
  - apply G_cs_next.
  - apply G_cs_next.
  - eapply pres_map, H_load.
  - eapply pres_ignore, G_cs_start.
  - eapply pres_ignore, G_cs_success.
  - eapply pres_ignore, G_cs_failure.
  - eapply pres_attempt, G_do_check.
  - eapply pres_attempt, G_do_update.
Qed.

End Gen.

(* A. Every plan (death or one failing call): the invariant, alive and dead alike, is I-ban of patches_state.json.
   [PJI] says it of the file as it stands, [IbanD] of what load_p makes of it; C04_fault_safe starts from PJI. *)
Definition PJI (d : disk) : Prop := match pj d with JOk s => Iban s | _ => True end.

Lemma PJI_IbanD d : PJI d <-> IbanD d.
Proof. unfold PJI, IbanD, load_p. destruct (pj d); split; auto using Iban_empty. Qed.

Section A.
Variable sha : bytes -> bytes.
Variable sigok : string -> string -> string -> bool.
Variable zdec : bytes -> bytes.
Variable base : bytes.
Notation P := (pres true PJI PJI).
Let ExtraA (l : list N) : Prop := True.
Let RsA (s : sstate) : Prop := True.

Lemma A_files d d' : sj d' = sj d -> pj d' = pj d -> PJI d -> PJI d'.
Proof. unfold PJI. intros _ ->. auto. Qed.

Lemma A_write_pj s : Gd ExtraA s -> P (fun _ => True) (write_pj s).
Proof. intros [H _]. apply (pres_write (fun _ H => H) set_pj); [reflexivity|..]; cbn; auto. Qed.

Lemma A_write_sj s : RsA s -> P (fun _ => True) (write_sj s).
Proof. intros _. apply (pres_write (fun _ H => H) set_sj); [reflexivity|..]; cbn; auto. Qed.

Lemma A_create_new r : P (fun _ => True) (create_newM r).
Proof. apply create_new_leaves. intros d E. apply PJI_IbanD. unfold IbanD. rewrite E. apply Iban_empty. Qed.

Lemma A_load c : P (GLd ExtraA RsA) (loadM c).
Proof.
  assert (Ge : GLd ExtraA RsA ({| rel := c_rel c; evq := [] |}, pempty)).
  { split; [split; [apply Iban_empty|exact Logic.I]|intros; exact Logic.I]. }
  assert (Hn : P (GLd ExtraA RsA) (create_newM (c_rel c) ;;; ret ({| rel := c_rel c; evq := [] |}, pempty))).
  { step (apply A_create_new) as _ _. apply pres_ret, Ge. }
  unfold loadM. step (apply pres_rd; auto) as okS _. step (apply pres_get) as d Hd.
  destruct (if okS then sj d else JGarbage) as [| |s]; try exact Hn.
  step (apply pres_rd; auto) as okP _. destruct (String.eqb (rel s) (c_rel c)); [|exact Hn].
  apply pres_ret. destruct okP; [|exact Ge].
  split; [split; [apply PJI_IbanD; exact Hd|exact Logic.I]|intros; exact Logic.I].
Qed.

Theorem any_fault_keeps_pji c o :
  P (fun _ => True) (callM sha sigok zdec base c o) /\ P (fun _ => True) (initM sha sigok c).
Proof.
  apply G_calls with (Extra := ExtraA) (Rs := RsA).
  - intros; exact Logic.I.
  - auto.
  - exact A_write_pj.
  - exact A_write_sj.
  - exact A_files.
  - exact (A_load c).
Qed.

End A.

(* B. Process death inside a call of the running release r; bad0 is the ban list the call found. *)
Section B.
Variable sha : bytes -> bytes.
Variable sigok : string -> string -> string -> bool.
Variable zdec : bytes -> bytes.
Variable base : bytes.
Variable r : string.
Variable bad0 : list N.

Definition ExtraB (l : list N) : Prop := incl bad0 l.
Definition RsB (s : sstate) : Prop := rel s = r.
Definition GoodS (s : pstate) : Prop := Gd ExtraB s.
Definition IB (d : disk) : Prop := stable r d /\ GoodS (load_p d).
(* at death; [stable r d ->]: the next launch resets the disk of another release *)
Definition SB (d : disk) : Prop :=
  stable r d -> match pj d with JOk s => GoodS s | _ => True end.

Lemma IB_SB d : IB d -> SB d.
Proof. intros [_ G] _. unfold load_p in G. destruct (pj d); auto. Qed.

Notation P := (pres false IB SB).

Lemma B_files d d' : sj d' = sj d -> pj d' = pj d -> IB d -> IB d'.
Proof. unfold IB, stable, load_p. intros -> ->. auto. Qed.

Lemma B_write_pj s : GoodS s -> P (fun _ => True) (write_pj s).
Proof.
  intros Gs. apply (pres_write IB_SB set_pj); [reflexivity| | |discriminate].
  - intros d [St _]. split; [exact St|exact Gs].
  - intros d _ _. exact Logic.I.
Qed.

Lemma B_write_sj s : RsB s -> P (fun _ => True) (write_sj s).
Proof.
  intros Rs. apply (pres_write IB_SB set_sj); [reflexivity| | |discriminate].
  - intros d [_ G]. split; [exists s; split; [reflexivity|exact Rs]|exact G].
  - intros d _ [x [E _]]. discriminate E.
Qed.

Variable c : cfg.
Hypothesis c_is_r : c_rel c = r.

Lemma B_load : P (GLd ExtraB RsB) (loadM c).
Proof.
  unfold loadM. step (apply (pres_rd_nofail IB_SB eq_refl)) as ok1 ->.
  step (apply pres_get) as d [[s [E1 E2]] G]. rewrite E1.
  step (apply (pres_rd_nofail IB_SB eq_refl)) as ok2 ->.
  rewrite c_is_r, E2, String.eqb_refl. apply pres_ret.
  split; [exact G|]. intros q. exact E2.
Qed.

Theorem crash_keeps_good o :
  P (fun _ => True) (callM sha sigok zdec base c o) /\ P (fun _ => True) (initM sha sigok c).
Proof.
  apply G_calls with (Extra := ExtraB) (Rs := RsB).
  - intros l l' H1 H2 k Hk. apply H1, H2, Hk.
  - exact IB_SB.
  - exact B_write_pj.
  - exact B_write_sj.
  - exact B_files.
  - exact B_load.
Qed.

End B.

Section Recovery.
Variable sha : bytes -> bytes.
Variable sigok : string -> string -> string -> bool.

Definition next_launch (c : cfg) (d : disk) : disk * option N :=
  cs_next sha sigok c (cs_init_recover sha sigok c d).

Lemma empty_nothing c d :
  load_p (norm c d) = pempty -> snd (cs_next sha sigok c d) = None /\ snd (next_launch c d) = None.
Proof.
  assert (K : forall d0, load_p (norm c d0) = pempty -> snd (cs_next sha sigok c d0) = None).
  { intros d0 E. unfold cs_next. rewrite E. reflexivity. }
  intros H. split; [exact (K d H)|]. apply K.
  unfold cs_init_recover. rewrite H. cbn. rewrite (norm_id c _ (norm_stable c d)). exact H.
Qed.

Lemma norm_empty c d : (stable (c_rel c) d -> load_p d = pempty) -> load_p (norm c d) = pempty.
Proof.
  intros H. destruct (norm_cases c d) as [E|E]; rewrite E; [|reflexivity].
  apply H. rewrite <- E. apply norm_stable.
Qed.

Lemma selected_ok c d d2 n :
  IbanD d -> cs_next sha sigok c d = (d2, Some n) ->
  intact sha sigok (c_key c) d2 n /\ ~ In n (bad (load_p d2)).
Proof.
  intros Ib E. pose proof (sec_IbanD sha sigok c SNext d Ib) as I2. cbn [Sections.sec_disk] in I2. rewrite E in I2.
  pose proof (cs_next_intact sha sigok c d d2 n E) as Hi. split; [exact Hi|].
  exact (intact_not_banned sha sigok _ _ _ I2 Hi).
Qed.

Theorem next_launch_safe c bad0 d :
  SB (c_rel c) bad0 d ->
  match snd (next_launch c d) with
  | None => True
  | Some n =>
      intact sha sigok (c_key c) (fst (next_launch c d)) n /\ ~ In n bad0 /\
      (forall m, cb (load_p (norm c d)) = Some m -> m_num m <> n)
  end.
Proof.
  intros HS. destruct (next_launch c d) as [d2 [n|]] eqn:E; cbn [fst snd]; [|exact Logic.I].
  (* a patch is selected, so d belongs to the running release and its patch state comes from the file *)
  assert (Hne : load_p (norm c d) <> pempty).
  { intros H. apply empty_nothing in H. rewrite E in H. destruct H; discriminate. }
  assert (St : stable (c_rel c) d).
  { destruct (norm_cases c d) as [Hn|Hn]; [rewrite <- Hn; apply norm_stable|].
    rewrite Hn in Hne. contradiction Hne. reflexivity. }
  rewrite (norm_id c d St) in *.
  assert (G : GoodS bad0 (load_p d)).
  { specialize (HS St). unfold load_p in *. destruct (pj d); [contradiction Hne; reflexivity..|exact HS]. }
  destruct G as [Hib Hinc].
  (* the next launch is the crash-detection section followed by the selection query *)
  unfold next_launch in E. rewrite cs_init_recover_disk in *.
  pose proof (sec_BM sha sigok c (SFail MsgInit) d St) as [S1 M1].
  pose proof (sec_BM sha sigok c SNext _ S1) as [_ M2]. cbn [Sections.sec_disk] in *.
  destruct (selected_ok c _ d2 n (sec_IbanD sha sigok c (SFail MsgInit) d Hib) E) as [Hint Hnb].
  rewrite E in M2. cbn in M2.
  split; [exact Hint|]. split.
  - intros Hin. apply Hnb, M2, M1, Hinc, Hin.
  - intros m Hm Heq. apply Hnb, M2. rewrite <- Heq.
    apply (fail_disk_bans sha sigok c MsgInit d m). rewrite (norm_id c d St). exact Hm.
Qed.

Lemma create_new_shape rr pl d c0 :
  (c0 <= 2)%nat ->
  let d' := disk_of (create_newM rr pl c0 d) in
  sj d' = sj d \/ sj d' = JGarbage \/ load_p d' = pempty.
Proof.
  intros _. cbv zeta.
  pose proof (create_new_leaves rr (fun d1 => d = d1 \/ load_p d1 = pempty) (fun _ E => or_intror E)) as K.
  apply (pres_disk (fun _ H => H) pl c0 d) in K; [|apply okpl_true|left; reflexivity].
  destruct K as [<-|E]; auto.
Qed.

Lemma load_other_release c pl d :
  ~ stable (c_rel c) d ->
  (exists c', loadM c pl 0%nat d = (Died, c', d)) \/
  exists c0, (c0 <= 2)%nat /\
    loadM c pl 0%nat d =
    match create_newM (c_rel c) pl c0 d with
    | (Ret _, c', d') => (Ret ({| rel := c_rel c; evq := [] |}, pempty), c', d')
    | (Err, c', d') => (Err, c', d')
    | (Died, c', d') => (Died, c', d')
    end.
Proof.
  intros H. unfold loadM. rewrite bind_unf.
  destruct (rd_cases pl 0%nat d) as [E0|[b0 E0]]; rewrite E0; [left; eauto|].
  rewrite bind_unf. change (get pl 1%nat d) with (@Ret disk d, 1%nat, d). cbv iota beta.
  (* where create_new runs, the equation to show is its [bind] with the final [ret], unfolded *)
  destruct (if b0 then sj d else JGarbage) as [| |s] eqn:Es; [right; exists 1%nat; auto..|].
  destruct b0; [|discriminate].
  assert (Er : String.eqb (rel s) (c_rel c) = false).
  { destruct (String.eqb_spec (rel s) (c_rel c)) as [Er|Er]; [|reflexivity]. exfalso. apply H. exists s. auto. }
  rewrite bind_unf.
  destruct (rd_cases pl 1%nat d) as [E1|[b1 E1]]; rewrite E1; [left; eauto|].
  rewrite Er. right. exists 2%nat. auto.
Qed.

Lemma init_is_create_new c pl d :
  ~ stable (c_rel c) d ->
  disk_of (initM sha sigok c pl 0%nat d) = d \/
  exists c0, (c0 <= 2)%nat /\ disk_of (initM sha sigok c pl 0%nat d) = disk_of (create_newM (c_rel c) pl c0 d).
Proof.
  intros H. unfold initM, cs_init_recoverM, attempt. rewrite 2 bind_unf.
  destruct (load_other_release c pl d H) as [[c' E]|(c0 & Hc0 & E)]; rewrite E.
  - left. reflexivity.
  - right. exists c0. split; [exact Hc0|].
    destruct (create_newM (c_rel c) pl c0 d) as [[[u| |] k] dd]; reflexivity.
Qed.

Theorem release_change_safe c d pl :
  ~ stable (c_rel c) d ->
  let d' := disk_of (initM sha sigok c pl 0%nat d) in
  snd (cs_next sha sigok c d') = None /\ snd (next_launch c d') = None.
Proof.
  intros H. cbv zeta. apply empty_nothing, norm_empty.
  destruct (init_is_create_new c pl d H) as [E0|(c0 & Hc0 & E0)]; rewrite E0; intros [s [E1 E2]].
  - contradiction H. exists s. auto.
  - destruct (create_new_shape (c_rel c) pl d c0 Hc0) as [E|[E|E]]; [|congruence|exact E].
    contradiction H. exists s. rewrite <- E. auto.
Qed.

End Recovery.

(* C05's first sentence under faults, the download directory included: whatever single system
   call fails (or however the call is cut short), an update that REPORTS 'installed' has put in place exactly the file
   that check_hash read back — the inflated output, or what a swallowed flush left of it — and that file's SHA-256
   is the advertised one.  In particular a gate that hashed the bytes "intended for disk" would not satisfy this. *)
Section Installed.
Variable sha : bytes -> bytes.
Variable sigok : string -> string -> string -> bool.
Variable zdec : bytes -> bytes.
Variable base : bytes.

(* only what a call that returns leaves is of interest here *)
Notation returns m Q := (tri true (fun _ => True) m Q (fun _ => True) (fun _ => True)).

(* add_patch returned Ok: patches/n/dlc.vmcode is the file it was given; patches_state.json names it (or is garbage,
   if the buffered write failed silently) *)
Lemma add_patch_ret s n b h sg :
  let s' := {| lb := lb s; nb := Some {| m_num := n; m_size := blen b; m_hash := h; m_sig := sg |}; cb := cb s; bad := bad s |} in
  returns (add_patchM s n b h sg)
    (fun r d' => r = s' /\ arts d' n = Some (AFile b) /\ (pj d' = JOk s' \/ pj d' = JGarbage)).
Proof.
  intros s'. set (Ok := fun d' : disk => arts d' n = Some (AFile b)). unfold add_patchM.
  eapply tri_bind; [apply tri_any|intros d]. eapply tri_bind; [apply tri_any|intros ?].
  apply tri_bind with (Q1 := fun _ => Ok); [apply tri_mut; auto; intros; exact (upd_art_same _ _ _)|intros ?].
  apply tri_bind with (Q1 := fun _ => Ok); [|intros ?].
  { (* the clean-up deletes the directory of another number *)
    destruct (nb s) as [x|]; [destruct (lb s) as [l|]|]; try (apply tri_ret; auto).
    destruct (_ && _)%bool eqn:Ec; [|apply tri_ret; auto].
    assert (Hx : n <> m_num x).
    { apply Bool.andb_true_iff, proj1, Bool.andb_true_iff, proj2, Bool.negb_true_iff, N.eqb_neq in Ec. congruence. }
    assert (R : pres true Ok (fun _ => True) (fun _ => True) (rm_art (m_num x))).
    { apply pres_rm_art; [auto|]. intros d0 v H0. unfold Ok. cbn. rewrite (upd_art_other _ _ _ _ Hx). exact H0. }
    eapply tri_ignore; [apply pres_tri, R| |]; cbv beta; tauto. }
  apply tri_bind with (Q1 := fun _ d' => Ok d' /\ (pj d' = JOk s' \/ pj d' = JGarbage)).
  - apply (tri_write _ set_pj); [reflexivity|..]; cbn; auto.
  - intros ?. apply tri_ret. auto.
Qed.

Lemma cs_install_ret c p b :
  returns (cs_installM c p b) (fun u d1 => u = UInstalled ->
    arts d1 (p_num p) = Some (AFile b) /\
    (pj d1 = JGarbage \/
     exists s, pj d1 = JOk s /\
       nb s = Some {| m_num := p_num p; m_size := blen b; m_hash := p_hash p; m_sig := p_sig p |} /\ ~ In (p_num p) (bad s))).
Proof.
  unfold cs_installM. eapply tri_bind; [apply tri_any|intros st].
  destruct (inb (p_num p) (bad (snd st))) eqn:Eb; [apply tri_ret; discriminate|].
  eapply tri_bind; [apply add_patch_ret|intros s2]. apply tri_ret.
  intros d (-> & Ha & Hp) _. split; [exact Ha|]. destruct Hp as [Hp|Hp]; [right|left; exact Hp].
  eexists. split; [exact Hp|]. split; [reflexivity|].
  cbn [bad]. intros Hin. apply inb_In in Hin. congruence.
Qed.

Theorem installed_is_the_verified_file c r dl :
  returns (do_updateM sha sigok zdec base c r dl) (fun u d1 => u = UInstalled ->
    exists rs p bdl out fileb,
      r = Some rs /\ r_patch rs = Some p /\ dl = Some bdl /\ inflate zdec base bdl = Some out /\
      (fileb = out \/ fileb = flushed_prefix out) /\
      hash_ok sha fileb (p_hash p) = true /\
      arts d1 (p_num p) = Some (AFile fileb) /\
      (pj d1 = JGarbage \/
       exists s, pj d1 = JOk s /\
         nb s = Some {| m_num := p_num p; m_size := blen fileb; m_hash := p_hash p; m_sig := p_sig p |} /\
         ~ In (p_num p) (bad s))).
Proof.
  unfold do_updateM.
  eapply tri_bind; [apply tri_any|intros ?]. eapply tri_bind; [apply tri_any|intros ?].
  destruct r as [rs|]; [|apply tri_fail; auto].
  eapply tri_bind; [apply tri_any|intros ?].
  destruct (negb (r_avail rs)); [apply tri_ret; discriminate|].
  destruct (r_patch rs) as [p|] eqn:Ep; [|apply tri_fail; auto].
  eapply tri_bind; [apply tri_any|intros sh].
  destruct sh; try (apply tri_ret; discriminate).
  destruct dl as [bdl|]; [|apply tri_fail; auto].
  eapply tri_bind; [apply pres_tri, (G_download zdec base true _ _ (fun _ H => H))|intros fileb].
  destruct (hash_ok sha fileb (p_hash p)) eqn:Eh; [|apply tri_fail; auto].
  eapply tri_conseq; [apply cs_install_ret|]. intros d [_ (out & Ei & Hf)]. split; [exact Logic.I|].
  intros u d' K Hu. exists rs, p, bdl, out, fileb. destruct (K Hu). auto 10.
Qed.

End Installed.
