(* The JSON readers of the model (JsonText.resp_schema / Json.v, JsonState.v, JsonSj.v) against the struct
   definitions in the current sources (gen/WireFormats.v, regenerated on every run): the same member names, and the same
   members required / optional / defaulted.  A renamed or added member, a new #[serde(default)] or deny_unknown_fields, a
   changed reader or writer function breaks C13_wire_formats_from_source (props/C13.v). *)

From UV Require Import Base Json JsonText JsonState JsonSj.
From UVG Require Import WireFormats.

Definition model_wire_structs : list (string * list string * list (string * string)) :=
  [ ("SerializedState", [], [("queued_events", "req"); ("release_version", "req")]);
    ("PatchEvent", [], [("app_id", "req"); ("arch", "req"); ("message", "opt"); ("patch_number", "req"); ("platform", "req");
                        ("release_version", "req"); ("timestamp", "req"); ("type", "req")]);
    ("PatchesState", [], [("currently_booting_patch", "opt"); ("known_bad_patches", "req"); ("last_booted_patch", "opt");
                          ("next_boot_patch", "opt")]);
    ("PatchMetadata", [], [("hash", "req"); ("number", "req"); ("signature", "opt"); ("size", "req")]);
    ("PatchCheckResponse", [], [("patch", "default"); ("patch_available", "req"); ("rolled_back_patch_numbers", "default")]);
    ("Patch", [], [("download_url", "req"); ("hash", "req"); ("hash_signature", "default"); ("number", "req")]) ]%string.

Definition smem (x : string) (l : list string) : bool := existsb (String.eqb x) l.
Definition same_set (a b : list string) : bool :=
  forallb (fun x => smem x b) a && forallb (fun x => smem x a) b && Nat.eqb (List.length a) (List.length b).
Definition names_of (n : string) : list string :=
  match find (fun r => String.eqb n (fst (fst r))) model_wire_structs with
  | Some r => map fst (snd r)
  | None => []
  end.
Definition schema_keys (sc : schema) : list string := match sc with SStruct fs => map fst fs | SLeaf => [] end.

Lemma readers_use_these_names :
  same_set (names_of "SerializedState") sj_keys = true /\
  same_set (names_of "PatchEvent") ev_keys = true /\
  same_set (names_of "PatchEvent") (schema_keys event_schema) = true /\
  same_set (names_of "PatchesState") (schema_keys pstate_schema) = true /\
  same_set (names_of "PatchMetadata") (schema_keys meta_schema) = true /\
  same_set (names_of "PatchCheckResponse") (schema_keys resp_schema) = true /\
  same_set (names_of "Patch") (schema_keys patch_schema) = true.
Proof. vm_compute. repeat split. Qed.

(* required / optional as the table says, shown on the readers themselves: each document lacks exactly one member *)
Definition evdoc (skip : string) : json :=
  JObj (filter (fun p => negb (String.eqb (fst p) skip))
    [("app_id", JStr "a"); ("arch", JStr "x"); ("type", JStr "__patch_download__"); ("patch_number", JNum (JInt false 1));
     ("platform", JStr "l"); ("release_version", JStr "r"); ("timestamp", JNum (JInt false 1)); ("message", JNull)]%string).
Definition metadoc (skip : string) : json :=
  JObj (filter (fun p => negb (String.eqb (fst p) skip))
    [("number", JNum (JInt false 1)); ("size", JNum (JInt false 1)); ("hash", JStr "h"); ("signature", JNull)]%string).
Definition psdoc (skip : string) : json :=
  JObj (filter (fun p => negb (String.eqb (fst p) skip))
    [("last_booted_patch", JNull); ("next_boot_patch", JNull); ("currently_booting_patch", JNull); ("known_bad_patches", JArr [])]%string).
Definition sjdoc (skip : string) : json :=
  JObj (filter (fun p => negb (String.eqb (fst p) skip)) [("release_version", JStr "r"); ("queued_events", JArr [])]%string).
Definition patchdoc (skip : string) : json :=
  JObj (filter (fun p => negb (String.eqb (fst p) skip))
    [("number", JNum (JInt false 1)); ("hash", JStr "h"); ("download_url", JStr "u"); ("hash_signature", JNull)]%string).
Definition respdoc (skip : string) : json :=
  JObj (filter (fun p => negb (String.eqb (fst p) skip))
    [("patch_available", JBool false); ("patch", JNull); ("rolled_back_patch_numbers", JNull)]%string).

Definition accepts {A} (f : json -> option A) (j : json) : bool := match f j with Some _ => true | None => false end.
Definition kind_ok {A} (f : json -> option A) (doc : string -> json) (fld : string * string) : bool :=
  let acc := accepts f (doc (fst fld)) in
  if String.eqb (snd fld) "req" then negb acc else acc.
Definition kinds_ok {A} (n : string) (f : json -> option A) (doc : string -> json) : bool :=
  accepts f (doc "") &&
  match find (fun r => String.eqb n (fst (fst r))) model_wire_structs with
  | Some r => forallb (kind_ok f doc) (snd r)
  | None => false
  end.

Lemma readers_require_what_the_structs_require :
  kinds_ok "SerializedState" fstate_of_json sjdoc = true /\
  kinds_ok "PatchEvent" as_fevent evdoc = true /\
  kinds_ok "PatchesState" pstate_of_json psdoc = true /\
  kinds_ok "PatchMetadata" as_meta metadoc = true /\
  kinds_ok "PatchCheckResponse" resp_of_json respdoc = true /\
  kinds_ok "Patch" as_patch patchdoc = true.
Proof. vm_compute. repeat split. Qed.

(* unknown members are accepted by every reader (no deny_unknown_fields anywhere) *)
Lemma readers_ignore_unknown_members :
  accepts fstate_of_json (JObj [("zz", JNull); ("release_version", JStr "r"); ("queued_events", JArr [])]%string) = true /\
  accepts pstate_of_json (JObj [("zz", JNull); ("known_bad_patches", JArr [])]%string) = true /\
  accepts resp_of_json (JObj [("zz", JNull); ("patch_available", JBool false)]%string) = true.
Proof. vm_compute. repeat split. Qed.

