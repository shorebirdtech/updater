(* Frame theorems for whole calls (step) and whole histories. *)
From UV Require Import Base Model PMLemmas Sections Inv Ban Frames2.

Section Frames3.
Variable sha : bytes -> bytes.
Variable sigok : string -> string -> string -> bool.
Variable zdec : bytes -> bytes.
Variable base : bytes.

Notation do_update := (do_update sha sigok zdec base).
Notation step := (step sha sigok zdec base).
Notation inflate := (inflate zdec base).
Notation SelD := (SelD sha sigok).
Notation sec_disk := (sec_disk sha sigok).
Notation sec_SelD := (sec_SelD sha sigok).
Notation sec_slots := (sec_slots sha sigok).

Definition stepw (w : world) (o : op) : world := fst (fst (step w o)).
Definition final (w : world) (ops : list op) : world := fold_left stepw ops w.

Fixpoint along (P : world -> op -> Prop) (w : world) (ops : list op) : Prop :=
  match ops with
  | [] => True
  | o :: rest => P w o /\ along P (stepw w o) rest
  end.

Lemma along_inv (Q : world -> Prop) (P : world -> op -> Prop) :
  (forall w o, Q w -> P w o -> Q (stepw w o)) ->
  forall ops w, Q w -> along P w ops -> Q (final w ops).
Proof.
  intros Hstep. induction ops as [|o rest IH]; intros w Hq Ha; cbn; auto.
  destruct Ha as [Hp Ha]. apply IH; auto.
Qed.

Definition keyed (key : option string) (w : world) (o : op) : Prop :=
  (forall c, w_cfg w = Some c -> c_key c = key) /\
  match o with
  | OInit r y _ => forall c, cfg_of r y = Some c -> c_key c = key
  | _ => True
  end.

Lemma actor_key key w o c : keyed key w o -> actor w o c -> c_key c = key.
Proof.
  intros [Hc Ho] Ha. destruct o; cbn in Ha; try contradiction; try (apply Hc, Ha).
  destruct Ha as (_ & _ & E). apply Ho, E.
Qed.

Definition art_damage_other (k : N) (o : op) : Prop :=
  match o with
  | ODamage (DDelArtFile n) | ODamage (DDelArtDir n) | ODamage (DSetArt n _) => n <> k
  | _ => True
  end.

Lemma status_installed u : RStatus (status_code u) = RStatus 1 -> u = UInstalled.
Proof. destruct u; cbn; intros H; try reflexivity; discriminate. Qed.

Definition nb_undisturbed (m : meta) (w : world) (o : op) : Prop :=
  art_damage_other (m_num m) o /\
  match o with
  | OFailure => forall b, cb (load_p (w_disk w)) = Some b -> m_num b <> m_num m
  | OInit _ _ _ => w_cfg w = None ->
                   forall b, cb (load_p (w_disk w)) = Some b -> m_num b <> m_num m
  | OCheck _ (Some rs) => not_listed (m_num m) rs
  | OUpdate _ r _ => (forall rs, r = Some rs -> not_listed (m_num m) rs) /\
                     snd (fst (step w o)) <> RStatus 1
  | _ => True
  end.

(* side conditions under which records of other slots survive an install *)
Definition install_ok (m : meta) (d : disk) (r : option resp) (dl : option bytes) : Prop :=
  forall rs p bdl out, r = Some rs -> r_patch rs = Some p -> dl = Some bdl -> inflate bdl = Some out ->
                       m_num m <> p_num p /\ consistent_offer d (new_meta p out).

Definition lb_undisturbed (m : meta) (w : world) (o : op) : Prop :=
  art_damage_other (m_num m) o /\
  match o with
  | OSuccess => forall b, cb (load_p (w_disk w)) = Some b -> m_num b = m_num m
  | OFailure => forall b, cb (load_p (w_disk w)) = Some b -> m_num b <> m_num m
  | OInit _ _ _ => w_cfg w = None ->
                   forall b, cb (load_p (w_disk w)) = Some b -> m_num b <> m_num m
  | OCheck _ (Some rs) => not_listed (m_num m) rs
  | OUpdate _ r dl => (forall rs, r = Some rs -> not_listed (m_num m) rs) /\
                      install_ok m (w_disk w) r dl
  | _ => True
  end.

Definition cb_undisturbed (m : meta) (w : world) (o : op) : Prop :=
  art_damage_other (m_num m) o /\
  match o with
  | OStart | OSuccess | OFailure => False
  | OInit _ _ _ => w_cfg w <> None
  | OCheck _ (Some rs) => not_listed (m_num m) rs
  | OUpdate _ r dl => (forall rs, r = Some rs -> not_listed (m_num m) rs) /\
                      install_ok m (w_disk w) r dl
  | _ => True
  end.

Definition undisturbed (sl : slot) : meta -> world -> op -> Prop :=
  match sl with SNB => nb_undisturbed | SLB => lb_undisturbed | SCB => cb_undisturbed end.

Lemma SelD_damage sl key d m g :
  art_damage_other (m_num m) (ODamage g) ->
  (match g with DSetPj _ | DSetSj _ => False | _ => True end) ->
  SelD sl key d m -> SelD sl key (apply_damage d g) m.
Proof.
  intros Ha Hg H. destruct g; cbn in *; try contradiction; try exact H;
    try (destruct (arts d n) eqn:E; [|exact H]);
    apply (Sel_ext sha sigok sl key d); auto; cbn; rewrite upd_art_other; auto.
Qed.

Lemma undisturbed_one sl m w o c k :
  undisturbed sl m w o -> actor w o c -> op_sec o = Some k -> sec_spares sl m k (load_p (w_disk w)).
Proof.
  (* op by op, the side condition [undisturbed] puts on the call is what [sec_spares] asks of its
     one section: a success report spares the last-good record only if the patch it promotes is m, a
     failure report spares a record only if it is about another patch, ... *)
  intros Hu Ha Hk.
  destruct o; try discriminate; injection Hk as <-; destruct sl; destruct Hu as [_ Hu]; cbn in *;
    try destruct Ha as (Hn & _ & _); auto; try discriminate; try contradiction; split; auto; discriminate.
Qed.

Lemma undisturbed_listed sl m w o r :
  undisturbed sl m w o -> (exists ch, o = OCheck ch r) \/ (exists ch dl, o = OUpdate ch r dl) ->
  forall l, listed r l -> ~ In (m_num m) l.
Proof.
  intros Hu Ho l Hl. pose proof Hl as (rs & -> & _). apply (not_listed_spec _ rs); [|exact Hl].
  destruct Ho as [[ch ->]|(ch & dl & ->)]; destruct sl; destruct Hu as [_ Hu]; cbn in Hu; try apply Hu; reflexivity.
Qed.

(* what the sections of a check that lists m's number in no rollback keep of d0 *)
Definition Kept (sl : slot) (c : cfg) (m : meta) (d0 x : disk) : Prop :=
  stable (c_rel c) x /\ SelD sl (c_key c) x m /\ SlotsSub d0 x /\ bad (load_p x) = bad (load_p d0).

Lemma Kept_refl sl c m d : stable (c_rel c) d -> SelD sl (c_key c) d m -> Kept sl c m d d.
Proof. intros S H. split; [exact S|]. split; [exact H|]. split; [apply SlotsSub_refl|reflexivity]. Qed.

Lemma sec_Kept sl c m d0 k x :
  match k with
  | SRead | SClear | SNext => True
  | SRollback l => ~ In (m_num m) l
  | _ => False
  end -> Kept sl c m d0 x -> Kept sl c m d0 (sec_disk c k x).
Proof.
  intros Hk (S & H & U & B). split; [apply sec_stable|]. split; [|split].
  - apply sec_SelD; auto. destruct k; try contradiction; exact Hk.
  - eapply SlotsSub_trans; [exact U|]. intros a Ha. apply sec_slots in Ha.
    destruct Ha as [Ha|(p & out & -> & _)]; [exact Ha|contradiction].
  - rewrite <- B. apply (sec_bad sha sigok); [exact S|]. intros e ->. contradiction.
Qed.

Lemma check_secs_Kept sl c r m d0 d d' :
  (forall l, listed r l -> ~ In (m_num m) l) -> secs sha sigok c (check_sec r) d d' ->
  Kept sl c m d0 d -> Kept sl c m d0 d'.
Proof.
  intros Hl. apply (secs_inv sha sigok c (check_sec r) (Kept sl c m d0)).
  intros k x Hk. apply sec_Kept. destruct k; auto; destruct Hk as [E|E]; discriminate E.
Qed.

Lemma cleared_Kept sl c m d : stable (c_rel c) d -> SelD sl (c_key c) d m -> Kept sl c m d (cleared c d).
Proof. intros S H. apply (sec_Kept sl c m d SClear _ I), (sec_Kept sl c m d SRead _ I), Kept_refl; assumption. Qed.

(* an install section whose status is that of the whole update goes through only if the update
   reports "installed", and then install_ok (or, for the selection, the excluded status) applies *)
Lemma undisturbed_install sl m w c ch r dl d3 p out :
  w_cfg w = Some c -> undisturbed sl m w (OUpdate ch r dl) -> stable (c_rel c) d3 -> SlotsSub (w_disk w) d3 ->
  update_sec sha zdec base c r dl (snd (fst (do_update c (w_disk w) ch r dl))) (SInstall p out) d3 ->
  sec_spares sl m (SInstall p out) (load_p d3).
Proof.
  intros Hc Hu S3 U3 ((rs & Er & Ea & Ep) & Eg & Est) Eb.
  apply gate_some in Eg. destruct Eg as (bdl & Ed & Ei & Eh).
  assert (Einst : snd (fst (do_update c (w_disk w) ch r dl)) = UInstalled)
    by (rewrite <- Est; unfold Model.cs_install; rewrite (norm_id c d3 S3), Eb; reflexivity).
  destruct sl; destruct Hu as [_ [_ Hi]].
  2: { exfalso. apply Hi. rewrite (step_update_status sha sigok zdec base w c ch r dl Hc), Einst. reflexivity. }
  all: destruct (Hi rs p bdl out Er Ep Ed Ei) as [Hn Hc']; split; [discriminate|]; split; [exact Hn|];
    eapply consistent_offer_sub; eauto.
Qed.

(* C09 (sl = SNB), C03 (SLB, SCB): a call that does not disturb the record m of slot sl leaves it
   there, artifact intact *)
Theorem Sel_frame sl r key w o m :
  within r w o -> keyed key w o -> stable r (w_disk w) ->
  SelD sl key (w_disk w) m -> undisturbed sl m w o ->
  SelD sl key (w_disk (stepw w o)) m.
Proof.
  intros Hw Hk S H Hu. unfold stepw.
  destruct (step_disk_view sha sigok zdec base w o) as [g E| |c k Ha E|c ch rr Ha E|c ch rr dl Ha E]; auto.
  2-4: rewrite <- (actor_rel r w o c Hw Ha) in S; rewrite <- (actor_key key w o c Hk Ha) in *.
  - (* damage *)
    subst o. apply SelD_damage; auto; [destruct sl; apply (proj1 Hu)|]. destruct Hw as [_ Hg]. destruct g; auto.
  - (* one section *)
    apply sec_SelD; auto. eapply undisturbed_one; eauto.
  - (* check *)
    apply (check_secs_Kept sl c rr m (w_disk w) _ _ (undisturbed_listed sl m w o rr Hu (or_introl (ex_intro _ ch E)))
             (do_check_secs sha sigok c (w_disk w) ch rr)), Kept_refl; assumption.
  - (* update: the sections of a check, then possibly the install *)
    assert (Hl := undisturbed_listed sl m w o rr Hu (or_intror (ex_intro _ ch (ex_intro _ dl E)))).
    destruct (update_split sha sigok zdec base c (w_disk w) ch rr dl) as (d3 & Hpre & Hend). cbv zeta in Hend.
    destruct (check_secs_Kept sl c rr m (w_disk w) _ _ Hl Hpre (cleared_Kept sl c m _ S H)) as (S3 & H3 & U3 & _).
    destruct Hend as [[-> _] | (p & out & Hi & ->)]; [exact H3|].
    apply (sec_SelD sl c (SInstall p out)); auto. subst o. eapply undisturbed_install; eauto.
Qed.

Definition InRel (r : string) (w : world) : Prop :=
  stable r (w_disk w) /\ (forall c, w_cfg w = Some c -> c_rel c = r).

Lemma InRel_step r w o : within r w o -> InRel r w -> InRel r (stepw w o).
Proof.
  intros Hw [S C]. destruct (step_BM sha sigok zdec base r w o Hw S) as [[S' _] C']. split; auto.
Qed.

Lemma persists r key (Q : disk -> Prop) (U : world -> op -> Prop) :
  (forall w o, within r w o -> keyed key w o -> stable r (w_disk w) -> Q (w_disk w) -> U w o ->
               Q (w_disk (stepw w o))) ->
  forall ops w, InRel r w -> Q (w_disk w) ->
    along (fun w o => within r w o /\ keyed key w o /\ U w o) w ops -> Q (w_disk (final w ops)).
Proof.
  intros Hq ops w HR HQ HA.
  apply (along_inv (fun w => InRel r w /\ Q (w_disk w))
                   (fun w o => within r w o /\ keyed key w o /\ U w o)); auto.
  intros w0 o [[S C] H] (Hw & Hk & Hu). split; [apply InRel_step; auto; split; auto|]. apply Hq; auto.
Qed.

(* the same over histories; a query then returns a selected m (selected_is_reported) *)
Theorem Sel_persists sl r key m ops : forall w,
  InRel r w -> SelD sl key (w_disk w) m ->
  along (fun w o => within r w o /\ keyed key w o /\ undisturbed sl m w o) w ops ->
  SelD sl key (w_disk (final w ops)) m.
Proof. apply (persists r key (fun d => SelD sl key d m) (undisturbed sl m)). intros w o. apply (Sel_frame sl). Qed.

End Frames3.
