(* The PatchManager operations of Model.v refine the abstract lifecycle machine of Spec.v.
   The relation R ties a disk + in-memory patch state to an abstract state: same selected / last good /
   booting numbers, same ban list, one record per number (Isame), and for every recorded patch "validates on
   this disk" is exactly "the abstract machine has a bootable artifact for that number". *)
From UV Require Import Base Model PMLemmas Frame Spec SpecProps.

Section Refine.
Variable sha : bytes -> bytes.
Variable sigok : string -> string -> string -> bool.
Variable key : option string.

Notation validate := (validate sha sigok key).
Notation fall_back := (fall_back sha sigok key).
Notation next_boot := (next_boot sha sigok key).
Notation boot_failure := (boot_failure sha sigok key).
Notation rollback_loop := (rollback_loop sha sigok key).

Definition R (d : disk) (s : pstate) (a : ast) : Prop :=
  a_sel a = onum (nb s) /\ a_good a = onum (lb s) /\ a_boot a = onum (cb s) /\ a_ban a = bad s /\
  Isame s /\
  (forall m, In (Some m) (slots s) -> validate d m = a_has a (m_num m)).

Lemma oeqb_onum o x : oeqb (onum o) x = numeq o x.
Proof. destruct o; reflexivity. Qed.

Lemma R_kept d s a x : R d s a -> a_good_kept a x = onum (lb_kept sha sigok key d s x).
Proof.
  intros (_ & Hg & _ & _ & _ & Hv). unfold a_good_kept, lb_kept. rewrite Hg.
  destruct (lb s) as [l|] eqn:El; [|reflexivity]. cbn [onum omap].
  rewrite validate_del, <- (Hv l) by (apply in_slots; auto).
  destruct (N.eqb (m_num l) x); [reflexivity|]. destruct (validate d l); reflexivity.
Qed.

Lemma R_fall_back d s a x :
  R d s a -> R (fst (fall_back d s x)) (snd (fall_back d s x)) (a_fall_back a x).
Proof.
  intros H. pose proof (R_kept d s a x H) as Hk. destruct H as (Hs & Hg & Hb & Hn & HI & Hv).
  split; [|split; [|split; [|split; [|split]]]].
  - rewrite a_fall_back_sel, fall_back_nb, Hs, oeqb_onum, Hk.
    destruct (numeq (nb s) x); [reflexivity|]. destruct (nb s); reflexivity.
  - rewrite a_fall_back_good, fall_back_lb. exact Hk.
  - rewrite a_fall_back_boot, fall_back_cb. exact Hb.
  - rewrite a_fall_back_ban, fall_back_bad. exact Hn.
  - apply fall_back_Isame, HI.
  - intros m Hm. apply fall_back_slots in Hm.
    rewrite a_fall_back_has, fall_back_validate, (Hv m Hm) by assumption. reflexivity.
Qed.

Lemma R_rollback l : forall d s a,
  R d s a -> R (fst (rollback_loop d s l)) (snd (rollback_loop d s l)) (a_rollback a l).
Proof.
  induction l as [|x l IH]; intros d s a H; cbn [Model.rollback_loop a_rollback fold_left]; [exact H|].
  pose proof (R_fall_back d s a x H) as H1.
  destruct (fall_back d s x) as [d' s']. cbn [fst snd] in H1. apply IH. exact H1.
Qed.

Lemma R_next_boot d s a :
  R d s a ->
  R (fst (fst (next_boot d s))) (snd (fst (next_boot d s))) (fst (a_query a)) /\
  snd (next_boot d s) = snd (a_query a).
Proof.
  intros H. pose proof H as (Hs & Hg & Hb & Hn & HI & Hv).
  unfold Model.next_boot, a_query. rewrite Hs.
  destruct (nb s) as [m|] eqn:En; cbn [onum omap].
  - rewrite <- (Hv m) by (apply in_slots; auto).
    destruct (validate d m) eqn:Ev; cbn [fst snd].
    + split; [exact H|reflexivity].
    + pose proof (R_fall_back d s a (m_num m) H) as H1.
      destruct (fall_back d s (m_num m)) as [d' s']. cbn [fst snd] in *.
      split; [exact H1|]. destruct H1 as (Hs' & _). rewrite Hs'. reflexivity.
  - cbn [fst snd]. split; [exact H|reflexivity].
Qed.

(* report_launch_start: next_boot_patch(), then record_boot_start_for_patch on what it hands out *)
Definition pm_start (d : disk) (s : pstate) : disk * pstate :=
  let '(d1, s1, r) := next_boot d s in
  match r with
  | Some _ => let s2 := {| lb := lb s1; nb := nb s1; cb := nb s1; bad := bad s1 |} in (save_p d1 s2, s2)
  | None => (d1, s1)
  end.

Lemma R_start d s a : R d s a -> R (fst (pm_start d s)) (snd (pm_start d s)) (a_start a).
Proof.
  intros H. destruct (R_next_boot d s a H) as [H1 H2].
  unfold pm_start, a_start.
  destruct (next_boot d s) as [[d1 s1] r]. destruct (a_query a) as [a1 r']. cbn [fst snd] in *. subst r'.
  destruct r as [n|]; cbn [fst snd]; [|exact H1].
  destruct H1 as (Hs & Hg & Hb & Hn & HI & Hv).
  repeat split; cbn [a_sel a_good a_boot a_ban a_has a_with_boot nb lb cb bad]; auto.
  - apply start_Isame. exact HI.
  - intros m Hin. rewrite validate_save. apply Hv. revert Hin. unfold slots. cbn. tauto.
Qed.

Lemma R_success d s a :
  R d s a -> R (fst (boot_success d s)) (snd (boot_success d s)) (a_success a).
Proof.
  intros H. pose proof H as (Hs & Hg & Hb & Hn & HI & Hv).
  pose proof (boot_success_Isame d s HI) as HI'.
  unfold boot_success, a_success in *. rewrite Hb.
  destruct (cb s) as [b|] eqn:Ec; cbn [onum omap fst snd] in *; [|exact H].
  repeat split; cbn [a_sel a_good a_boot a_ban a_has nb lb cb bad]; auto.
  intros m Hin. rewrite validate_save, validate_sweep. cbn [nb].
  rewrite Hs, oeqb_onum.
  destruct (N.ltb (m_num m) (m_num b) && negb (numeq (nb s) (m_num m))); [reflexivity|].
  apply Hv. revert Hin. unfold slots. rewrite Ec. cbn. intuition discriminate.
Qed.

Lemma R_failure d s a bm :
  R d s a -> cb s = Some bm ->
  R (fst (boot_failure d s (m_num bm))) (snd (boot_failure d s (m_num bm))) (a_failure a).
Proof.
  intros H Ec. pose proof H as (Hs & Hg & Hb & Hn & HI & Hv).
  unfold Model.boot_failure, a_failure. rewrite Hb, Ec. cbn [onum omap].
  apply R_fall_back.
  repeat split; cbn [a_sel a_good a_boot a_ban a_has a_with_ban a_with_boot nb lb cb bad]; auto.
  - rewrite Hn. reflexivity.
  - apply unboot_Isame, HI.
  - intros m Hin. apply Hv. revert Hin. unfold slots. cbn. intuition discriminate.
Qed.

Lemma R_add_patch d s a n b h sg :
  let new := {| m_num := n; m_size := blen b; m_hash := h; m_sig := sg |} in
  R d s a -> consistent s new -> validate (put_art d n b) new = true ->
  R (fst (add_patch d s n b h sg)) (snd (add_patch d s n b h sg)) (a_install a n).
Proof.
  intros new H C Vn. pose proof H as (Hs & Hg & Hb & Hn & HI & Hv).
  destruct (install_fields a n) as (E1 & E2 & E3 & E4).
  split; [exact E1|]. split; [rewrite E2; exact Hg|]. split; [rewrite E3; exact Hb|]. split; [rewrite E4; exact Hn|].
  split; [apply add_patch_Isame; assumption|]. intros m Hin.
  (* once the new artifact is written: the new record validates, and the kept ones as before *)
  assert (Hput : validate (put_art d n b) m = a_has (a_put a n) (m_num m)).
  { apply in_slots in Hin. cbn [add_patch snd lb nb cb] in Hin. cbn [a_has a_put].
    destruct (N.eqb_spec (m_num m) n) as [E|E].
    - replace m with new; [exact Vn|].
      destruct Hin as [Hm|[Hm|Hm]]; [symmetry; apply C; auto|injection Hm as <-; reflexivity|symmetry; apply C; auto].
    - rewrite validate_put_other by exact E. apply Hv, in_slots.
      destruct Hin as [Hm|[Hm|Hm]]; auto. injection Hm as <-. contradiction E. reflexivity. }
  (* then both machines reclaim the same never-booted predecessor *)
  unfold add_patch, a_install. cbn [fst]. rewrite validate_save, Hs, Hg, Hb.
  destruct (nb s) as [x|]; [destruct (lb s) as [l|]|]; cbn [onum omap a_has a_with_sel]; try exact Hput.
  rewrite oeqb_onum.
  destruct (negb (N.eqb (m_num l) (m_num x)) && negb (N.eqb (m_num x) n) && negb (numeq (cb s) (m_num x)));
    cbn [a_has a_del]; [|exact Hput].
  rewrite validate_del, Hput. reflexivity.
Qed.

Inductive pmop :=
| PQuery | PStart | PSuccess | PFailure
| PInstall (n : N) (b : bytes) (h : string) (sg : option string)
| PRollback (l : list N).

Definition pm_step (ds : disk * pstate) (o : pmop) : (disk * pstate) * option N :=
  let '(d, s) := ds in
  match o with
  | PQuery => let '(d', s', r) := next_boot d s in ((d', s'), r)
  | PStart => (pm_start d s, None)
  | PSuccess => (boot_success d s, None)
  | PFailure => (match cb s with Some bm => boot_failure d s (m_num bm) | None => (d, s) end, None)
  | PInstall n b h sg => (if inb n (bad s) then (d, s) else add_patch d s n b h sg, None)
  | PRollback l => (rollback_loop d s l, None)
  end.

Definition a_step (a : ast) (o : pmop) : ast * option N :=
  match o with
  | PQuery => a_query a
  | PStart => (a_start a, None)
  | PSuccess => (a_success a, None)
  | PFailure => (a_failure a, None)
  | PInstall n _ _ _ => (if inb n (a_ban a) then a else a_install a n, None)
  | PRollback l => (a_rollback a l, None)
  end.

(* what the environment must guarantee for an install: the new record agrees with any kept record of the same
   number (one content per patch number) and the installed content is bootable (it passed the hash gate; with a
   key configured its signature verifies) *)
Definition op_ok (ds : disk * pstate) (o : pmop) : Prop :=
  match o with
  | PInstall n b h sg =>
      let new := {| m_num := n; m_size := blen b; m_hash := h; m_sig := sg |} in
      inb n (bad (snd ds)) = false ->
      consistent (snd ds) new /\ validate (put_art (fst ds) n b) new = true
  | _ => True
  end.

Theorem pm_refines d s a o :
  R d s a -> op_ok (d, s) o ->
  R (fst (fst (pm_step (d, s) o))) (snd (fst (pm_step (d, s) o))) (fst (a_step a o)) /\
  snd (pm_step (d, s) o) = snd (a_step a o).
Proof.
  intros H Hok. destruct o as [| | | |n b h sg|l]; cbn [pm_step a_step].
  - destruct (R_next_boot d s a H) as [H1 H2]. destruct (next_boot d s) as [[d' s'] r]. cbn [fst snd] in *. auto.
  - split; [apply R_start; exact H|reflexivity].
  - split; [apply R_success; exact H|reflexivity].
  - split; [|reflexivity]. cbn [fst snd]. pose proof H as (_ & _ & Hb & _).
    destruct (cb s) as [bm|] eqn:Ec.
    + apply R_failure; auto.
    + unfold a_failure. rewrite Hb. cbn. exact H.
  - split; [|reflexivity]. cbn [fst snd]. pose proof H as (_ & _ & _ & Hn & _). rewrite Hn.
    destruct (inb n (bad s)) eqn:Eb; [exact H|].
    destruct (Hok Eb) as [C V]. apply R_add_patch; auto.
  - split; [apply R_rollback; exact H|reflexivity].
Qed.

Fixpoint pm_run (ds : disk * pstate) (ops : list pmop) : (disk * pstate) * list (option N) :=
  match ops with
  | [] => (ds, [])
  | o :: r => let '(ds1, x) := pm_step ds o in let '(ds2, t) := pm_run ds1 r in (ds2, x :: t)
  end.
Fixpoint a_run (a : ast) (ops : list pmop) : ast * list (option N) :=
  match ops with
  | [] => (a, [])
  | o :: r => let '(a1, x) := a_step a o in let '(a2, t) := a_run a1 r in (a2, x :: t)
  end.
Fixpoint ops_ok (ds : disk * pstate) (ops : list pmop) : Prop :=
  match ops with
  | [] => True
  | o :: r => op_ok ds o /\ ops_ok (fst (pm_step ds o)) r
  end.

Theorem pm_run_refines ops : forall d s a,
  R d s a -> ops_ok (d, s) ops ->
  R (fst (fst (pm_run (d, s) ops))) (snd (fst (pm_run (d, s) ops))) (fst (a_run a ops)) /\
  snd (pm_run (d, s) ops) = snd (a_run a ops).
Proof.
  induction ops as [|o r IH]; intros d s a H Hok; cbn [pm_run a_run]; [auto|].
  destruct Hok as [Ho Hr].
  destruct (pm_refines d s a o H Ho) as [H1 H2].
  destruct (pm_step (d, s) o) as [[d1 s1] x]. destruct (a_step a o) as [a1 x']. cbn [fst snd] in *. subst x'.
  destruct (IH d1 s1 a1 H1 Hr) as [H3 H4].
  destruct (pm_run (d1, s1) r) as [[d2 s2] t]. destruct (a_run a1 r) as [a2 t']. cbn [fst snd] in *. subst t'.
  auto.
Qed.

Definition a_empty : ast := {| a_sel := None; a_good := None; a_boot := None; a_ban := []; a_has := fun _ => false |}.
(* no record, so nothing is said about the artifacts *)
Lemma R_pempty d has :
  R d pempty {| a_sel := None; a_good := None; a_boot := None; a_ban := []; a_has := has |}.
Proof.
  repeat split; cbn; auto; [apply Isame_empty|]. intros m [H|[H|[H|[]]]]; discriminate.
Qed.

Lemma R_empty d : R d pempty a_empty.
Proof. apply R_pempty. Qed.

End Refine.
