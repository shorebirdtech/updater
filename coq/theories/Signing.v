(* cache/signing.rs::check_signature with its base64 layer modelled: the configured public key and the served
   signature are base64 text (BASE64_STANDARD of the base64 crate: standard alphabet, padding required and canonical,
   no stray trailing bits); only what they decode to reaches the RSA verifier, which stays an oracle.  So "signature
   not base64" and "unparsable key" are theorems here, not properties of an opaque oracle. *)
From UV Require Import Base.
From Coq Require Import ZifyN.

Definition b64_val (c : ascii) : option N :=
  let n := N_of_ascii c in
  if (65 <=? n) && (n <=? 90) then Some (n - 65)
  else if (97 <=? n) && (n <=? 122) then Some (n - 71)
  else if (48 <=? n) && (n <=? 57) then Some (n + 4)
  else if n =? 43 then Some 62
  else if n =? 47 then Some 63
  else None.

Definition is_pad (c : ascii) : bool := N_of_ascii c =? 61.

Definition three (a b c d : N) : bytes :=
  [a * 4 + b / 16; (b mod 16) * 16 + c / 4; (c mod 4) * 64 + d].

(* groups of four characters; '=' only as the last one or two characters of the last group, and then the bits
   that do not belong to a byte must be zero (DecodePaddingMode::RequireCanonical, no trailing bits) *)
Fixpoint b64_groups (l : list ascii) : option bytes :=
  match l with
  | [] => Some []
  | a :: b :: c :: d :: rest =>
      match rest with
      | [] =>
          match b64_val a, b64_val b with
          | Some x, Some y =>
              if is_pad d then
                if is_pad c then (if y mod 16 =? 0 then Some [x * 4 + y / 16] else None)
                else match b64_val c with
                     | Some z => if z mod 4 =? 0 then Some [x * 4 + y / 16; (y mod 16) * 16 + z / 4] else None
                     | None => None
                     end
              else match b64_val c, b64_val d with
                   | Some z, Some w => Some (three x y z w)
                   | _, _ => None
                   end
          | _, _ => None
          end
      | _ =>
          match b64_val a, b64_val b, b64_val c, b64_val d, b64_groups rest with
          | Some x, Some y, Some z, Some w, Some t => Some (three x y z w ++ t)
          | _, _, _, _, _ => None
          end
      end
  | _ => None
  end.

Definition b64_decode (s : string) : option bytes := b64_groups (list_ascii_of_string s).

(* the encoder of the same engine (what `openssl base64 -A` / the Shorebird CLI produce) *)
Definition b64_char (n : N) : ascii :=
  if n <? 26 then ascii_of_N (65 + n)
  else if n <? 52 then ascii_of_N (71 + n)
  else if n <? 62 then ascii_of_N (n - 4)
  else if n =? 62 then ascii_of_N 43 else ascii_of_N 47.
Definition pad_char : ascii := ascii_of_N 61.

Fixpoint b64_enc (l : bytes) : list ascii :=
  match l with
  | [] => []
  | [x] => [b64_char (x / 4); b64_char ((x mod 4) * 16); pad_char; pad_char]
  | [x; y] => [b64_char (x / 4); b64_char ((x mod 4) * 16 + y / 16); b64_char ((y mod 16) * 4); pad_char]
  | x :: y :: z :: rest =>
      b64_char (x / 4) :: b64_char ((x mod 4) * 16 + y / 16) :: b64_char ((y mod 16) * 4 + z / 64)
        :: b64_char (z mod 64) :: b64_enc rest
  end.
Definition b64_encode (l : bytes) : string := string_of_list_ascii (b64_enc l).

Section Sig.
(* ring::signature::UnparsedPublicKey::verify with RSA_PKCS1_2048_8192_SHA256 (DER parsing included): an oracle *)
Variable rsa : bytes -> string -> bytes -> bool.

(* check_signature(message, signature, public_key).is_ok() *)
Definition check_signature (key msg sg : string) : bool :=
  match b64_decode key with
  | None => false                         (* "Failed to decode public_key" *)
  | Some kb =>
      match b64_decode sg with
      | None => false                     (* "Failed to decode signature" *)
      | Some sb => rsa kb msg sb
      end
  end.

Theorem key_not_base64_rejects_everything key :
  b64_decode key = None -> forall msg sg, check_signature key msg sg = false.
Proof. intros H msg sg. unfold check_signature. rewrite H. reflexivity. Qed.

Theorem signature_not_base64_rejected key msg sg :
  b64_decode sg = None -> check_signature key msg sg = false.
Proof. intros H. unfold check_signature. rewrite H. destruct (b64_decode key); reflexivity. Qed.

Theorem accepted_means_verified key msg sg :
  check_signature key msg sg = true ->
  exists kb sb, b64_decode key = Some kb /\ b64_decode sg = Some sb /\ rsa kb msg sb = true.
Proof.
  unfold check_signature. destruct (b64_decode key) as [kb|]; [|discriminate].
  destruct (b64_decode sg) as [sb|]; [|discriminate]. intros H. eauto.
Qed.
End Sig.

Lemma b64_groups_len l t : b64_groups l = Some t -> (List.length l mod 4 = 0)%nat.
Proof.
  revert l t. fix IH 1. intros [|a [|b [|c [|d rest]]]] t H; try discriminate; [reflexivity|].
  pose proof (IH rest) as IHr. cbn [b64_groups] in H. destruct rest as [|e rest']; [reflexivity|].
  destruct (b64_val a), (b64_val b), (b64_val c), (b64_val d); try discriminate.
  destruct (b64_groups (e :: rest')) as [t'|]; [|discriminate].
  specialize (IHr t' eq_refl). cbn [List.length] in *.
  replace (S (S (S (S (S (List.length rest')))))) with (S (List.length rest') + 1 * 4)%nat by lia.
  rewrite Nat.mod_add by discriminate. exact IHr.
Qed.

(* a property of the 64 symbols is checked on the table *)
Lemma below_64 (P : N -> bool) :
  forallb P (map N.of_nat (seq 0 64)) = true -> forall n, n < 64 -> P n = true.
Proof.
  intros H n Hn. rewrite forallb_forall in H. apply H, in_map_iff.
  exists (N.to_nat n). split; [lia|apply in_seq; lia].
Qed.

Lemma b64_val_char n : n < 64 -> b64_val (b64_char n) = Some n.
Proof.
  intros H.
  apply (below_64 (fun k => match b64_val (b64_char k) with Some v => v =? k | None => false end)) in H;
    [|vm_compute; reflexivity].
  destruct (b64_val (b64_char n)) as [v|]; [|discriminate]. f_equal. apply N.eqb_eq, H.
Qed.

Lemma b64_char_not_pad n : n < 64 -> is_pad (b64_char n) = false.
Proof.
  intros H. apply (below_64 (fun k => negb (is_pad (b64_char k)))) in H; [|vm_compute; reflexivity].
  apply Bool.negb_true_iff, H.
Qed.

Lemma two_digits a b c : c < b -> (a * b + c) / b = a /\ (a * b + c) mod b = c.
Proof.
  intros H. rewrite N.div_add_l, N.div_small, N.add_0_r, N.add_comm, N.mod_add, N.mod_small by lia.
  split; reflexivity.
Qed.

Lemma undigits x b : b <> 0 -> x / b * b + x mod b = x.
Proof. intros H. rewrite N.mul_comm. symmetry. apply N.div_mod'. Qed.

Lemma three_ok x y z : x < 256 -> y < 256 -> z < 256 ->
  three (x / 4) ((x mod 4) * 16 + y / 16) ((y mod 16) * 4 + z / 64) (z mod 64) = [x; y; z].
Proof.
  intros Hx Hy Hz. unfold three.
  destruct (two_digits (x mod 4) 16 (y / 16)) as [-> ->]; [lia|].
  destruct (two_digits (y mod 16) 4 (z / 64)) as [-> ->]; [lia|].
  rewrite !undigits by discriminate. reflexivity.
Qed.

Lemma bytes_ind3 (P : bytes -> Prop) :
  P [] -> (forall x, P [x]) -> (forall x y, P [x; y]) ->
  (forall x y z r, P r -> P (x :: y :: z :: r)) -> forall l, P l.
Proof.
  intros H0 H1 H2 H3.
  fix IH 1. intros [|x [|y [|z r]]]; [exact H0|apply H1|apply H2|apply H3; apply IH].
Qed.

Lemma is_pad_pad : is_pad pad_char = true.
Proof. reflexivity. Qed.

Lemma b64_enc_nonempty x r : b64_enc (x :: r) <> [].
Proof. destruct r as [|y [|z r]]; discriminate. Qed.

Theorem b64_roundtrip l : wf_bytes l -> b64_groups (b64_enc l) = Some l.
Proof.
  induction l as [|x|x y|x y z r IH] using bytes_ind3; intros W.
  - reflexivity.
  - inversion W as [|? ? Hx _]; subst.
    (* lia writes out every quotient and remainder in sight: it is shown the bounds of the bytes only *)
    cbn [b64_enc b64_groups]. rewrite !b64_val_char, !is_pad_pad by (clear - Hx; lia).
    rewrite N.mod_mul, N.div_mul, undigits by discriminate. reflexivity.
  - inversion W as [|? ? Hx W1]; subst. inversion W1 as [|? ? Hy _]; subst.
    cbn [b64_enc b64_groups]. rewrite !b64_val_char, is_pad_pad, b64_char_not_pad by (clear - Hx Hy; lia).
    destruct (two_digits (x mod 4) 16 (y / 16)) as [-> ->]; [clear - Hy; lia|].
    rewrite N.mod_mul, N.div_mul, !undigits by discriminate. reflexivity.
  - inversion W as [|? ? Hx W1]; subst. inversion W1 as [|? ? Hy W2]; subst. inversion W2 as [|? ? Hz W3]; subst.
    specialize (IH W3). cbn [b64_enc b64_groups]. rewrite !b64_val_char by (clear - Hx Hy Hz; lia).
    destruct r as [|r0 r'].
    + cbn [b64_enc]. rewrite b64_char_not_pad by (clear - Hz; lia). rewrite three_ok by assumption.
      reflexivity.
    + destruct (b64_enc (r0 :: r')) as [|e rest] eqn:Ee; [exfalso; eapply b64_enc_nonempty; exact Ee|].
      rewrite IH, three_ok by assumption. reflexivity.
Qed.

Theorem b64_decode_encode l : wf_bytes l -> b64_decode (b64_encode l) = Some l.
Proof.
  intros W. unfold b64_decode, b64_encode. rewrite list_ascii_of_string_of_list_ascii. apply b64_roundtrip. exact W.
Qed.

(* rejected: a character outside the alphabet; a missing padding character; non-zero bits under the padding;
   padding followed by a symbol; three padding characters *)
Example b64_rejects :
  b64_decode "not base64!" = None /\ b64_decode "QUJD" = Some [65; 66; 67] /\
  b64_decode "QUI" = None /\ b64_decode "QUI=" = Some [65; 66] /\ b64_decode "QUJ=" = None /\
  b64_decode "QQ==" = Some [65] /\ b64_decode "QR==" = None /\ b64_decode "" = Some [] /\
  b64_decode "QQ=A" = None /\ b64_decode "Q===" = None.
Proof. vm_compute. repeat split. Qed.
