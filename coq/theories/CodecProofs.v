(* Facts about the byte-level model of Codec.v and Base.v, in this order: lengths and splitting of
   byte lists; the hex round trip (the hash gate of C16 rests on it); the varint round trips; reading n bytes
   and slices; the bidiff-writer / bipatch-reader round trip (C16). *)
From UV Require Import Base Codec.
From Coq Require Import ZifyN ZifyBool.

Lemma blen_app (a b : bytes) : blen (a ++ b) = blen a + blen b.
Proof. unfold blen. rewrite app_length. lia. Qed.

Lemma blen_firstn (n : N) (p : bytes) : n <= blen p -> blen (firstn (N.to_nat n) p) = n.
Proof. unfold blen. rewrite firstn_length. lia. Qed.

Lemma blen_skipn (n : nat) (p : bytes) : blen (skipn n p) = blen p - N.of_nat n.
Proof. unfold blen. rewrite skipn_length. lia. Qed.

Lemma firstn_add {A} (n m : nat) : forall (l : list A),
  firstn (n + m) l = firstn n l ++ firstn m (skipn n l).
Proof.
  induction n as [|n IH]; intros l; cbn; auto.
  destruct l as [|x l]; cbn; [destruct m; reflexivity|]. rewrite IH. reflexivity.
Qed.

Lemma skipn_add {A} (n m : nat) : forall (l : list A), skipn (n + m) l = skipn m (skipn n l).
Proof.
  induction n as [|n IH]; intros l; [reflexivity|].
  destruct l as [|x l]; cbn [skipn Nat.add]; [rewrite skipn_nil; reflexivity|apply IH].
Qed.

Lemma wf_split (n : nat) (l : bytes) : wf_bytes l -> wf_bytes (firstn n l) /\ wf_bytes (skipn n l).
Proof. intros H. apply Forall_app. rewrite firstn_skipn. exact H. Qed.

Lemma bytes_eqb_refl (b : bytes) : bytes_eqb b b = true.
Proof. induction b as [|x b IH]; cbn; auto. rewrite N.eqb_refl. exact IH. Qed.

Lemma unhex_hex_digit n : n < 16 -> unhex_digit (hex_digit n) = Some n.
Proof.
  intros H. unfold unhex_digit, hex_digit. destruct (n <? 10) eqn:E.
  - rewrite N_ascii_embedding by lia.
    assert (E1 : ((48 <=? 48 + n) && (48 + n <=? 57)) = true) by lia. rewrite E1. f_equal. lia.
  - rewrite N_ascii_embedding by lia.
    assert (E1 : ((48 <=? 87 + n) && (87 + n <=? 57)) = false) by lia. rewrite E1.
    assert (E2 : ((97 <=? 87 + n) && (87 + n <=? 102)) = true) by lia. rewrite E2. f_equal. lia.
Qed.

Lemma unhex_hex (b : bytes) : wf_bytes b -> unhex (hex_of_bytes b) = Some b.
Proof.
  induction b as [|x b IH]; intros W; cbn [hex_of_bytes unhex]; auto.
  apply Forall_cons_iff in W. destruct W as [Hx W].
  rewrite unhex_hex_digit by (apply N.div_lt_upper_bound; lia).
  rewrite unhex_hex_digit by (apply N.mod_lt; discriminate).
  rewrite IH, <- N.div_mod' by exact W. reflexivity.
Qed.

Lemma dec_enc_raw f : forall n r,
  n < 128 ^ N.of_nat (S f) -> dec_raw (S f) (enc_raw (S f) n ++ r) = VOk n r.
Proof.
  induction f as [|f IH]; intros n r Hn.
  - change (128 ^ N.of_nat 1) with 128 in Hn. cbn [enc_raw dec_raw].
    assert (E : (n <? 128) = true) by lia. rewrite E. cbn [app]. rewrite E. reflexivity.
  - remember (S f) as g. cbn [enc_raw dec_raw]. destruct (n <? 128) eqn:E.
    + cbn [app]. rewrite E. reflexivity.
    + cbn [app]. assert (H1 : (128 + n mod 128 <? 128) = false) by lia. rewrite H1.
      subst g. rewrite IH.
      * f_equal. rewrite (N.add_comm 128), N.add_sub, N.add_comm. symmetry. apply N.div_mod'.
      * rewrite Nat2N.inj_succ, N.pow_succ_r' in Hn. apply N.div_lt_upper_bound; [discriminate|exact Hn].
Qed.

Theorem varint_u64 n r : n < two64 -> dec_u (enc_u n ++ r) = VOk n r.
Proof.
  intros H. unfold dec_u, enc_u. rewrite (dec_enc_raw 9).
  - f_equal. apply N.mod_small. exact H.
  - (* ten groups of seven bits hold a u64 *)
    apply (N.lt_trans _ _ _ H). reflexivity.
Qed.

Lemma enc_raw_bytes fuel : forall n b, In b (enc_raw fuel n) -> b < 256.
Proof.
  induction fuel as [|f IH]; intros n b; cbn [enc_raw In]; [tauto|].
  destruct (n <? 128) eqn:E; cbn [In]; intros [<-|H]; [lia|contradiction| |eauto].
  pose proof (N.mod_lt n 128). lia.
Qed.

Lemma enc_u_wf n : wf_bytes (enc_u n).
Proof. apply Forall_forall. intros b. apply enc_raw_bytes. Qed.

Lemma enc_u_nonempty n : enc_u n <> [].
Proof. unfold enc_u. cbn [enc_raw]. destruct (n <? 128); discriminate. Qed.

Lemma zigzag_round z :
  (- two63 <= z < two63)%Z -> zigzag_enc z < two64 /\ zigzag_dec (zigzag_enc z) = z.
Proof.
  unfold two63, two64, zigzag_enc, zigzag_dec. intros H.
  destruct (0 <=? z)%Z eqn:E.
  - replace (Z.to_N (2 * z)) with (2 * Z.to_N z) by lia.
    rewrite N.even_mul, N.mul_comm, N.div_mul by discriminate. cbn [N.even orb]. lia.
  - replace (Z.to_N (- 2 * z - 1)) with (1 + Z.to_N (- z - 1) * 2) by lia.
    rewrite N.mul_comm, N.even_add_mul_2, N.mul_comm, N.div_add, N.add_0_l by discriminate.
    cbn [N.even N.div]. lia.
Qed.

Theorem varint_i64 z r : (- two63 <= z < two63)%Z -> dec_s (enc_s z ++ r) = VOk z r.
Proof.
  intros H. destruct (zigzag_round z H) as [H1 H2].
  unfold dec_s, enc_s. rewrite varint_u64 by exact H1. rewrite H2. reflexivity.
Qed.

Lemma take_exact_firstn (n : nat) (l : bytes) :
  (n <= List.length l)%nat -> take_exact n l = Some (firstn n l, skipn n l).
Proof.
  revert l. induction n as [|n IH]; intros l H; cbn; auto.
  destruct l as [|x l]; cbn in *; [lia|]. rewrite IH by lia. reflexivity.
Qed.

Lemma take_N_spec n p :
  take_N n p = if n <=? blen p then Some (firstn (N.to_nat n) p, skipn (N.to_nat n) p) else None.
Proof.
  unfold take_N. destruct (n <=? blen p) eqn:E; [|reflexivity].
  apply take_exact_firstn. unfold blen in E. lia.
Qed.

Lemma take_N_some n p a r : take_N n p = Some (a, r) -> p = a ++ r /\ blen a = n.
Proof.
  rewrite take_N_spec. destruct (n <=? blen p) eqn:E; [|discriminate]. intros H. injection H as <- <-.
  split; [symmetry; apply firstn_skipn|apply blen_firstn; lia].
Qed.

Lemma take_N_app (a r : bytes) : take_N (blen a) (a ++ r) = Some (a, r).
Proof.
  rewrite take_N_spec, blen_app. assert (E : (blen a <=? blen a + blen r) = true) by lia. rewrite E.
  unfold blen. rewrite Nat2N.id, firstn_app, skipn_app, Nat.sub_diag, firstn_all, skipn_all, app_nil_r.
  reflexivity.
Qed.

Lemma take_N_split n m p :
  take_N (n + m) p =
  match take_N n p with
  | Some (a, p1) => match take_N m p1 with Some (b, p2) => Some (a ++ b, p2) | None => None end
  | None => None
  end.
Proof.
  rewrite (take_N_spec n p), (take_N_spec (n + m) p).
  destruct (n <=? blen p) eqn:E1.
  - rewrite take_N_spec, blen_skipn, N2Nat.inj_add, firstn_add, skipn_add.
    destruct (n + m <=? blen p) eqn:E2; destruct (m <=? _) eqn:E3; try lia; reflexivity.
  - destruct (n + m <=? blen p) eqn:E2; [lia|reflexivity].
Qed.

Lemma read_old_char old pos n :
  read_old old pos n =
  if n =? 0 then Some []
  else if (pos <? 0)%Z then None
  else if (Z.of_N (blen old) <? pos + Z.of_N n)%Z then None
  else Some (firstn (N.to_nat n) (skipn (Z.to_nat pos) old)).
Proof.
  unfold read_old. destruct (n =? 0); auto. destruct (pos <? 0)%Z eqn:E1; auto.
  destruct (Z.of_N (blen old) <? pos + Z.of_N n)%Z eqn:E2; auto.
  rewrite take_exact_firstn; auto. rewrite skipn_length. unfold blen in *. lia.
Qed.

Lemma blen_slice (l : bytes) from len : from + len <= blen l -> blen (slice l from len) = len.
Proof. intros H. apply blen_firstn. rewrite blen_skipn. lia. Qed.

Lemma read_old_slice old pos n :
  pos + n <= blen old -> read_old old (Z.of_N pos) n = Some (slice old pos n).
Proof.
  intros H. rewrite read_old_char, <- Z_N_nat, N2Z.id. fold (slice old pos n).
  destruct (n =? 0) eqn:E0; [assert (n = 0) by lia; subst n; reflexivity|].
  assert (E1 : (Z.of_N pos <? 0)%Z = false) by lia.
  assert (E2 : (Z.of_N (blen old) <? Z.of_N pos + Z.of_N n)%Z = false) by lia.
  rewrite E1, E2. reflexivity.
Qed.

Lemma slice_app (l : bytes) a n1 n2 :
  slice l a n1 ++ slice l (a + n1) n2 = slice l a (n1 + n2).
Proof. unfold slice. rewrite !N2Nat.inj_add, skipn_add, firstn_add. reflexivity. Qed.

Lemma slice_all (l : bytes) : slice l 0 (blen l) = l.
Proof. unfold slice, blen. rewrite Nat2N.id. apply firstn_all. Qed.

Lemma wf_slice l from len : wf_bytes l -> wf_bytes (slice l from len).
Proof. intros H. apply wf_split, wf_split, H. Qed.

Lemma add_sub_bytes : forall (o x : bytes),
  blen o = blen x -> wf_bytes o -> wf_bytes x -> add_bytes o (sub_bytes x o) = x.
Proof.
  unfold blen.
  induction o as [|a o IH]; intros [|b x] Hl Ho Hx; cbn in *; try lia; [reflexivity|].
  apply Forall_cons_iff in Ho, Hx. destruct Ho as [Ha Ho], Hx as [Hb Hx].
  rewrite IH by (assumption || lia). f_equal.
  rewrite N.add_mod_idemp_r by discriminate. replace (a + (b + 256 - a)) with (b + 1 * 256) by lia.
  rewrite N.mod_add by discriminate. apply N.mod_small. exact Hb.
Qed.

Lemma blen_sub_bytes : forall (x o : bytes), blen x = blen o -> blen (sub_bytes x o) = blen x.
Proof.
  unfold blen. induction x as [|a x IH]; intros [|b o] H; cbn in *; try lia.
  specialize (IH o). lia.
Qed.

Lemma wf_matches_from_cons old new npos m rest :
  wf_matches_from old new npos (m :: rest) = true <->
  add_new_start m = npos /\ add_old_start m + add_length m <= blen old /\
  add_new_start m + add_length m <= copy_end m /\ copy_end m <= blen new /\
  wf_matches_from old new (copy_end m) rest = true.
Proof. cbn [wf_matches_from]. rewrite !andb_true_iff, N.eqb_eq, !N.leb_le. tauto. Qed.

Definition old_start (dflt : N) (ms : list bmatch) : N :=
  match ms with m :: _ => add_old_start m | [] => dflt end.

Lemma old_start_le old new npos ms dflt :
  wf_matches_from old new npos ms = true -> dflt <= blen old -> old_start dflt ms <= blen old.
Proof.
  destruct ms as [|m rest]; [auto|]. intros H _. apply wf_matches_from_cons in H. cbn [old_start]. lia.
Qed.

Lemma wf_matches_start old new ms :
  wf_matches old new ms = true -> wf_matches_from old new 0 ms = true /\ old_start 0 ms = 0.
Proof.
  destruct ms as [|m rest]; cbn [wf_matches wf_matches_from old_start]; [lia|].
  intros H. apply andb_prop in H. destruct H as [H0 H]. split; [exact H|lia].
Qed.

Section Records.
Variable old new : bytes.
Hypothesis (Wo : wf_bytes old) (Wn : wf_bytes new).
Hypothesis (Bo : (Z.of_N (blen old) < two63)%Z) (Bn : (Z.of_N (blen new) < two63)%Z).

Lemma apply_written_control f (pos pos' : N) c rest acc :
  pos + blen (c_add c) <= blen old -> blen (c_copy c) <= blen new -> pos' <= blen old ->
  (Z.of_N pos + Z.of_N (blen (c_add c)) + c_seek c = Z.of_N pos')%Z ->
  apply_records (S f) old (Z.of_N pos) (write_control c ++ rest) acc =
  apply_records f old (Z.of_N pos') rest
                (acc ++ add_bytes (slice old pos (blen (c_add c))) (c_add c) ++ c_copy c).
Proof.
  intros Ha Hc Hp Es. unfold two63 in *. unfold write_control. rewrite <- !app_assoc. cbn [apply_records].
  rewrite varint_u64 by (unfold two64; lia). rewrite take_N_app, read_old_slice by exact Ha.
  rewrite varint_u64 by (unfold two64; lia). rewrite take_N_app.
  rewrite varint_i64 by (unfold two63; lia). rewrite Es.
  assert (Eb : ((Z.of_N pos' <? 0)%Z || (two63 <=? Z.of_N pos')%Z) = false) by (unfold two63; lia).
  rewrite Eb. reflexivity.
Qed.

Lemma apply_one_record m ms f rest acc :
  add_old_start m + add_length m <= blen old ->
  add_new_start m + add_length m <= copy_end m -> copy_end m <= blen new ->
  old_start (add_old_start m + add_length m) ms <= blen old ->
  apply_records (S f) old (Z.of_N (add_old_start m))
                (write_control (control_of old new m (hd_error ms)) ++ rest) acc =
  apply_records f old (Z.of_N (old_start (add_old_start m + add_length m) ms)) rest
                (acc ++ slice new (add_new_start m) (copy_end m - add_new_start m)).
Proof.
  intros H1 H2 H3 H4. set (c := control_of old new m (hd_error ms)).
  assert (La : blen (c_add c) = add_length m).
  { cbn [c control_of c_add]. rewrite blen_sub_bytes; rewrite !blen_slice; lia. }
  rewrite (apply_written_control f _ (old_start (add_old_start m + add_length m) ms)); rewrite ?La.
  - cbn [c control_of c_add c_copy].
    rewrite add_sub_bytes, slice_app by (try apply wf_slice; auto; rewrite !blen_slice; lia).
    do 3 f_equal. lia.
  - exact H1.
  - cbn [c control_of c_copy]. rewrite blen_slice; lia.
  - exact H4.
  - cbn [c control_of c_seek]. destruct ms; cbn [hd_error old_start]; lia.
Qed.

Lemma apply_all_records : forall ms f acc npos dflt,
  wf_matches_from old new npos ms = true -> (List.length ms < f)%nat ->
  apply_records f old (Z.of_N (old_start dflt ms))
                (List.concat (map write_control (translate old new ms))) acc =
  Some (acc ++ slice new npos (blen new - npos)).
Proof.
  induction ms as [|m rest IH]; intros f acc npos dflt Hwf Hf; cbn [List.length] in Hf;
    (destruct f as [|f]; [lia|]).
  - (* clean end of input *)
    cbn [wf_matches_from] in Hwf. replace npos with (blen new) by lia.
    rewrite N.sub_diag. unfold slice. cbn [N.to_nat firstn]. rewrite app_nil_r. reflexivity.
  - apply wf_matches_from_cons in Hwf. destruct Hwf as (<- & H1 & H2 & H3 & Hwf).
    pose proof (old_start_le _ _ _ _ _ Hwf H1) as H4.
    cbn [translate map List.concat old_start].
    rewrite apply_one_record, (IH f _ (copy_end m)), <- app_assoc by (auto; lia).
    replace (blen new - add_new_start m)
      with (copy_end m - add_new_start m + (blen new - copy_end m)) by lia.
    rewrite <- slice_app. do 4 f_equal. lia.
Qed.

End Records.

Lemma concat_length_ge (cs : list control) :
  (List.length cs <= List.length (List.concat (map write_control cs)))%nat.
Proof.
  induction cs as [|c cs IH]; cbn [map List.concat List.length]; auto. rewrite app_length.
  assert (1 <= List.length (write_control c))%nat.
  { unfold write_control. rewrite app_length. pose proof (enc_u_nonempty (blen (c_add c))).
    destruct (enc_u (blen (c_add c))); [contradiction|]. cbn [List.length]. lia. }
  lia.
Qed.

Lemma translate_length old new ms : List.length (translate old new ms) = List.length ms.
Proof. induction ms; cbn; auto. Qed.

(* C16: whatever match list the differ emits, as long as it is well formed, the patch the writer
   produces makes the reader reproduce [new] byte for byte *)
Theorem roundtrip old new ms :
  wf_bytes old -> wf_bytes new ->
  (Z.of_N (blen old) < two63)%Z -> (Z.of_N (blen new) < two63)%Z ->
  wf_matches old new ms = true ->
  apply_patch old (simple_diff old new ms) = Some new.
Proof.
  intros Wo Wn Bo Bn Hwf. unfold simple_diff, write_patch, apply_patch, header.
  cbn [magic_bytes version_bytes app take_exact].
  change (bytes_eqb [223; 177; 0; 0] magic_bytes) with true.
  change (bytes_eqb [0; 16; 0; 0] version_bytes) with true. cbn iota.
  apply wf_matches_start in Hwf. destruct Hwf as [Hwf E0].
  pose proof (concat_length_ge (translate old new ms)) as Hl. rewrite translate_length in Hl.
  replace 0%Z with (Z.of_N (old_start 0 ms)) by (rewrite E0; reflexivity).
  rewrite (apply_all_records old new Wo Wn Bo Bn ms _ [] 0) by (auto; lia).
  cbn [app]. rewrite N.sub_0_r, slice_all. reflexivity.
Qed.

