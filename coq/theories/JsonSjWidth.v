(* The room the vector reader is given does not matter once it is enough: for every width at least the
   length of the text the reader of state.json computes the same thing.  So [sj_of_file] (width = length of the text) is
   the reader with unbounded room, and the torn-write theorem holds for [sj_of_file] itself. *)
From UV Require Import Base Model JsonText JsonTextProofs JsonTextSound JsonTorn JsonSj JsonSjProofs.
From Coq Require Import Lia.
Local Open Scope N_scope.

Lemma GS_len_pos sc t b : GS sc t b -> (1 <= List.length b)%nat.
Proof. intros g. destruct (GS_head _ _ _ g) as (c & z & -> & _). cbn. lia. Qed.

Lemma field_of_repeat k p n : (1 <= n)%nat ->
  field_of k (repeat p n) = if String.eqb k (fst p) then Some (snd p) else None.
Proof.
  destruct p as [nm sc]. induction n as [|n IH]; [lia|]. intros _. cbn [repeat field_of fst snd].
  destruct (String.eqb k nm) eqn:E; [reflexivity|].
  destruct n as [|n']; [reflexivity|]. rewrite IH by lia. cbn [fst snd]. rewrite E. reflexivity.
Qed.

Lemma hd_schema_repeat p n : (1 <= n)%nat -> hd_schema (repeat p n) = snd p.
Proof. destruct n as [|n]; [lia|]. intros _. destruct p. reflexivity. Qed.
Lemma tl_repeat {A} (p : A) n : tl (repeat p n) = repeat p (pred n).
Proof. destruct n; reflexivity. Qed.

Lemma skipn_repeat {A} (p : A) : forall i n, skipn i (repeat p n) = repeat p (n - i).
Proof. induction i as [|i IH]; intros [|n]; try reflexivity. cbn [skipn repeat]. apply IH. Qed.
Lemma tl_skipn {A} : forall i (l : list A), tl (skipn i l) = skipn (S i) l.
Proof. induction i as [|i IH]; intros [|a l]; try reflexivity. apply (IH l). Qed.

(* a sentence of at most K bytes of one struct is a sentence of another when the two agree on what a text of K bytes
   can reach *)
Section Transport.
  Variables (fs fs' : list (string * schema)) (K : nat).
  Hypothesis Hknown : forall k sc v b, field_of k fs = Some sc -> GS sc v b -> (List.length b <= K)%nat ->
    exists sc', field_of k fs' = Some sc' /\ GS sc' v b.
  Hypothesis Hunknown : forall k, field_of k fs = None -> field_of k fs' = None.
  Hypothesis Hpos : forall i v b, GS (hd_schema (skipn i fs)) v b -> (i + List.length b <= K)%nat ->
    GS (hd_schema (skipn i fs')) v b.

  Lemma transport_GSV k v b : GSV fs k v b -> (List.length b <= K)%nat -> GSV fs' k v b.
  Proof.
    intros H Hb. inversion H as [? ? sc ? ? Hf Hg|? ? ? Hf Hl]; subst.
    - destruct (Hknown k sc v b Hf Hg Hb) as (sc' & Hf' & Hg'). exact (GSV_known fs' k sc' v b Hf' Hg').
    - apply GSV_unknown; [apply Hunknown; exact Hf|exact Hl].
  Qed.

  Lemma transport_GSM : forall fs0 l b, GSM fs0 l b -> fs0 = fs -> (List.length b <= K)%nat -> GSM fs' l b.
  Proof.
    induction 1 as [fs0 k kb w2 w3 v b w4 Hk Hw2 Hw3 Hv Hw4|fs0 k kb w2 w3 v b w4 w1 l b' Hk Hw2 Hw3 Hv Hw4 Hw1 Hm' IH];
      intros -> Hb; repeat (rewrite ?app_length in Hb; cbn [List.length] in Hb).
    - constructor; try assumption. apply transport_GSV; [assumption|lia].
    - constructor; try assumption; [apply transport_GSV; [assumption|lia]|]. apply IH; [reflexivity|lia].
  Qed.

  Lemma transport_GSE : forall fs0 l b, GSE fs0 l b -> forall i, fs0 = skipn i fs -> (i + List.length b <= K)%nat ->
    GSE (skipn i fs') l b.
  Proof.
    induction 1 as [fs0 v b w2 Hv Hw2|fs0 v b w2 w1 l b' Hv Hw2 Hw1 He IH];
      intros i -> Hb; repeat (rewrite ?app_length in Hb; cbn [List.length] in Hb).
    - constructor; [|exact Hw2]. apply Hpos; [exact Hv|lia].
    - constructor; try assumption; [apply Hpos; [exact Hv|lia]|].
      rewrite tl_skipn. apply IH; [apply tl_skipn|lia].
  Qed.

  Lemma transport_GS t b : GS (SStruct fs) t b -> (List.length b <= K)%nat -> GS (SStruct fs') t b.
  Proof.
    intros H Hb.
    inversion H as [| ? ? ? Hgg Hno Hna | ? w0 Hw0 | ? l w0 b0 Hw0 Hmm | ? w0 Hw0 | ? l w0 b0 Hw0 He]; subst;
      cbn [List.length] in Hb; rewrite ?app_length in Hb.
    - (* neither an object nor an array *) apply GS_other; assumption.
    - (* {} *) apply GS_obj0; assumption.
    - (* {members} *) apply GS_obj; [assumption|]. apply (transport_GSM fs l b0 Hmm eq_refl). lia.
    - (* [] *) apply GS_arr0; assumption.
    - (* [elements] *) apply GS_arr; [assumption|]. apply (transport_GSE fs l b0 He 0 eq_refl). lia.
  Qed.
End Transport.

Lemma vec_pos p n m K : (K <= n)%nat -> (K <= m)%nat ->
  forall i v b, GS (hd_schema (skipn i (repeat p n))) v b -> (i + List.length b <= K)%nat ->
    GS (hd_schema (skipn i (repeat p m))) v b.
Proof.
  intros Hn Hm i v b Hg Hi. pose proof (GS_len_pos _ _ _ Hg) as Hp.
  rewrite skipn_repeat, hd_schema_repeat in * by lia. exact Hg.
Qed.

Lemma vec_GSE p : forall fs l b, GSE fs l b -> forall n m, fs = repeat p n ->
  (List.length b <= n)%nat -> (List.length b <= m)%nat -> GSE (repeat p m) l b.
Proof.
  intros fs l b H n m -> Hn Hm.
  exact (transport_GSE (repeat p n) (repeat p m) (List.length b) (vec_pos p n m _ Hn Hm) _ l b H 0 eq_refl (le_n _)).
Qed.

Lemma vec_GS p n m t b : GS (SStruct (repeat p n)) t b -> (List.length b <= n)%nat -> (List.length b <= m)%nat ->
  GS (SStruct (repeat p m)) t b.
Proof.
  intros H Hn Hm. pose proof (GS_len_pos _ _ _ H) as Hp.
  apply (transport_GS (repeat p n) (repeat p m) (List.length b)); [| |apply vec_pos; assumption|exact H|apply le_n].
  - intros k sc v b0 Hf Hg _. exists sc. rewrite field_of_repeat in * by lia. split; assumption.
  - intros k Hf. rewrite field_of_repeat in * by lia. exact Hf.
Qed.

Lemma GSE_nil_any l b : GSE [] l b -> GSE [] l b.
Proof. exact (fun H => H). Qed.

Lemma outer_GS n m t b : GS (sstate_schema n) t b -> (List.length b <= n)%nat -> (List.length b <= m)%nat ->
  GS (sstate_schema m) t b.
Proof.
  intros H Hn Hm. unfold sstate_schema in *. refine (transport_GS _ _ (List.length b) _ _ _ t b H (le_n _)).
  - (* a known key: the version as it is, the vector by vec_GS *)
    intros k sc v b0 Hf Hg Hb. cbn [field_of] in *.
    destruct (String.eqb k "release_version"); [exists sc; split; assumption|].
    destruct (String.eqb k "queued_events"); [|discriminate]. injection Hf as <-.
    exists (vec_schema m event_schema). split; [reflexivity|]. apply (vec_GS _ n m); [exact Hg|lia|lia].
  - intros k Hf. cbn [field_of] in *.
    destruct (String.eqb k "release_version"); [discriminate|]. destruct (String.eqb k "queued_events"); [discriminate|reflexivity].
  - (* the positional form: the version, the vector, then nothing *)
    intros [|[|i]] v b0 Hg Hb; cbn [skipn] in *; rewrite ?skipn_nil in *; [exact Hg| |exact Hg].
    apply (vec_GS _ n m); [exact Hg|lia|lia].
Qed.

Lemma parse_body_width_one_way n m l t :
  (List.length l <= n)%nat -> (List.length l <= m)%nat ->
  parse_body (sstate_schema n) l = Some t -> parse_body (sstate_schema m) l = Some t.
Proof.
  intros Hn Hm H. apply parse_body_iff in H. destruct H as (w & b & w' & Hw & Hg & Hw' & ->).
  apply parse_body_iff. exists w, b, w'. repeat split; try assumption.
  rewrite !app_length in *. apply (outer_GS n m); [assumption|lia|lia].
Qed.

Theorem parse_body_width n m l :
  (List.length l <= n)%nat -> (List.length l <= m)%nat ->
  parse_body (sstate_schema n) l = parse_body (sstate_schema m) l.
Proof.
  intros Hn Hm.
  destruct (parse_body (sstate_schema n) l) as [t|] eqn:E1.
  - symmetry. apply (parse_body_width_one_way n m); assumption.
  - destruct (parse_body (sstate_schema m) l) as [t'|] eqn:E2; [|reflexivity].
    apply (parse_body_width_one_way m n) in E2; [congruence|assumption|assumption].
Qed.

Theorem sj_of_file_width n l : (List.length l <= n)%nat -> sj_of_file_n n l = sj_of_file l.
Proof.
  intros H. unfold sj_of_file, sj_of_file_n, fstate_of_body_n.
  rewrite (parse_body_width n (List.length l) l H (le_n _)). reflexivity.
Qed.

(* '{' ... '}' is what serde_json::to_writer_pretty produces.  The prefix is read with the room the complete text is
   given, which is enough for it. *)
Theorem torn_state_json (P p r : bytes) s :
  sj_of_file P = JOk s -> P = p ++ r -> r <> [] ->
  (exists x, skip_ws P = 123 :: x) -> (exists y, P = y ++ [125]) ->
  sj_of_file p = JGarbage.
Proof.
  intros HP EP Hr Hs He.
  rewrite <- (sj_of_file_width (List.length P) p) by (rewrite EP, app_length; lia).
  unfold sj_of_file, sj_of_file_n in *. destruct (fstate_of_body_n (List.length P) P) as [a|] eqn:E; [|discriminate].
  rewrite (body_reader_torn _ fstate_of_json P p r a E EP Hr Hs He : fstate_of_body_n _ p = None). reflexivity.
Qed.
