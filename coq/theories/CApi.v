(* The C wrappers of c_api/mod.rs as a layer over Model.step: what each exported function does with the raw pointers
   it is handed before (and instead of) calling into the updater.  A C string argument is NULL, a NUL-terminated byte
   string that is not UTF-8, or a proper string; `to_rust` rejects the first two, `to_rust_option` maps NULL to "no
   channel".  A conversion error becomes the wrapper's documented error default (log_on_error). *)
From UV Require Import Base Model.

Inductive cstr := CNull | CBadUtf8 | CStr (s : string).

Definition to_rust (c : cstr) : option string :=
  match c with CStr s => Some s | _ => None end.
Definition to_rust_option (c : cstr) : option (option string) :=
  match c with CNull => Some None | CStr s => Some (Some s) | CBadUtf8 => None end.

(* struct AppParameters as the wrapper sees it; [None] = the struct pointer itself is NULL.  A NULL entry of
   original_libapp_paths is a conversion error (to_rust_vector); an array of size 0 is passed on and becomes
   OInit's [paths_ok] = false, the error of libapp_path_from_settings in updater::init. *)
Record cparams := { cp_rel : cstr; cp_storage : cstr; cp_cache : cstr; cp_paths : list cstr }.

Inductive ccall :=
| CInit (p : option cparams) (yaml : cstr) (y : yaml_in)       (* y: what serde_yaml makes of a proper yaml string *)
| CNextNum | CNextPath | CCurNum | CAuto | CStart | CSuccess | CFailure
| CCheck (ch : cstr) (r : option resp)                          (* shorebird_check_for_downloadable_update *)
| CCheck0 (r : option resp)                                     (* shorebird_check_for_update *)
| CUpdateWithResult (ch : cstr) (r : option resp) (dl : option bytes)
| CUpdate0 (r : option resp) (dl : option bytes)                (* shorebird_update / shorebird_start_update_thread *)
| CFreeString (null : bool) | CFreeUpdateResult (null : bool).

Inductive cout :=
| KBool (b : bool) | KNum (n : N) | KPath (o : option N) | KUnit
| KResult (status : Z) (has_message : bool).

Section Oracles.
Variable sha : bytes -> bytes.
Variable sigok : string -> string -> string -> bool.
Variable zdec : bytes -> bytes.
Variable base : bytes.

Notation step := (step sha sigok zdec base).

Definition all_strings (l : list cstr) : option (list string) :=
  fold_right (fun c acc => match to_rust c, acc with Some s, Some t => Some (s :: t) | _, _ => None end) (Some []) l.

Definition out_of (o : out) : cout :=
  match o with
  | RBool b => KBool b | RNum n => KNum n | RPath p => KPath p | RUnit => KUnit
  | RStatus z => KResult z true         (* to_update_result: every status carries a message *)
  end.

Definition cstep (w : world) (c : ccall) : world * cout * list netobs :=
  let via o := let '(w', r, l) := step w o in (w', out_of r, l) in
  match c with
  | CInit p yaml y =>
      match p with
      | None => (w, KBool false, [])                                   (* "Null parameters passed" *)
      | Some ps =>
          match to_rust (cp_storage ps), to_rust (cp_cache ps), to_rust (cp_rel ps),
                all_strings (cp_paths ps), to_rust yaml with
          | Some _, Some _, Some relv, Some paths, Some _ =>
              via (OInit relv y (match paths with [] => false | _ => true end))
          | _, _, _, _, _ => (w, KBool false, [])
          end
      end
  | CNextNum => via ONextNum | CNextPath => via ONextPath | CCurNum => via OCurNum | CAuto => via OAuto
  | CStart => via OStart | CSuccess => via OSuccess | CFailure => via OFailure
  | CCheck ch r =>
      match to_rust_option ch with
      | Some c' => via (OCheck c' r)
      | None => (w, KBool false, [])
      end
  | CCheck0 r => via (OCheck None r)
  | CUpdateWithResult ch r dl =>
      match to_rust_option ch with
      | Some c' => via (OUpdate c' r dl)
      | None => (w, KResult (-1) true, [])                             (* to_update_result(Err(utf8 error)) *)
      end
  | CUpdate0 r dl => let '(w', _, l) := step w (OUpdate None r dl) in (w', KUnit, l)
  | CFreeString _ | CFreeUpdateResult _ => (w, KUnit, [])              (* NULL is accepted and ignored *)
  end.

Definition bad_arg (c : ccall) : Prop :=
  match c with
  | CInit None _ _ => True
  | CInit (Some ps) yaml _ =>
      to_rust (cp_storage ps) = None \/ to_rust (cp_cache ps) = None \/ to_rust (cp_rel ps) = None \/
      all_strings (cp_paths ps) = None \/ to_rust yaml = None
  | CCheck ch _ => ch = CBadUtf8
  | CUpdateWithResult ch _ _ => ch = CBadUtf8
  | _ => False
  end.

Theorem bad_argument_inert w c :
  bad_arg c ->
  let '(w', r, l) := cstep w c in
  w' = w /\ l = [] /\
  r = match c with CInit _ _ _ => KBool false | CCheck _ _ => KBool false | _ => KResult (-1) true end.
Proof.
  destruct c as [[ps|] yaml y| | | | | | | |ch r|r|ch r dl|r dl|n|n]; cbn [bad_arg]; try contradiction.
  - intros H. cbn [cstep].
    destruct (to_rust (cp_storage ps)); [|cbn; auto].
    destruct (to_rust (cp_cache ps)); [|cbn; auto].
    destruct (to_rust (cp_rel ps)); [|cbn; auto].
    destruct (all_strings (cp_paths ps)); [|cbn; auto].
    destruct (to_rust yaml); [|cbn; auto].
    destruct H as [H|[H|[H|[H|H]]]]; discriminate.
  - intros _. cbn. auto.
  - intros ->. cbn. auto.
  - intros ->. cbn. auto.
Qed.

Theorem good_arguments_are_the_call w ch r dl :
  cstep w (CUpdateWithResult (match ch with Some s => CStr s | None => CNull end) r dl) =
  (let '(w', o, l) := step w (OUpdate ch r dl) in (w', out_of o, l)) /\
  cstep w (CCheck (match ch with Some s => CStr s | None => CNull end) r) =
  (let '(w', o, l) := step w (OCheck ch r) in (w', out_of o, l)).
Proof. destruct ch; split; reflexivity. Qed.

Theorem free_null_is_noop w b : cstep w (CFreeString b) = (w, KUnit, []) /\ cstep w (CFreeUpdateResult b) = (w, KUnit, []).
Proof. split; reflexivity. Qed.

Theorem update_result_codes w ch r dl :
  match snd (fst (cstep w (CUpdateWithResult ch r dl))) with
  | KResult z m => m = true /\ (z = (-1) \/ z = 0 \/ z = 1 \/ z = 2 \/ z = 3)%Z
  | _ => False
  end.
Proof.
  cbn [cstep]. destruct (to_rust_option ch) as [c'|]; [|cbn; auto].
  destruct (step w (OUpdate c' r dl)) as [[w' o] l] eqn:E. cbn [fst snd].
  unfold Model.step in E. destruct (w_cfg w) as [c|].
  - destruct (do_update sha sigok zdec base c (w_disk w) c' r dl) as [[d' u] l']. inversion E; subst.
    cbn. split; [reflexivity|]. destruct u; cbn; auto.
  - inversion E; subst. cbn. auto.
Qed.

End Oracles.
