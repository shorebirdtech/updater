(* The properties, read off the abstract machine.  Everything here is about Spec.v alone (no disks, no
   records): invariants of the abstract lifecycle machine and the frame facts that C02 / C03 / C09 / C10 / C18 state.
   Through SpecCalls.step_refines they hold of the model's calls; being short, they double as a review of the spec. *)
From UV Require Import Base Spec.

Lemma oeqb_true o x : oeqb o x = true <-> o = Some x.
Proof.
  destruct o as [y|]; cbn; [|split; discriminate].
  rewrite N.eqb_eq. split; [intros ->; reflexivity|intros H; inversion H; reflexivity].
Qed.
Lemma oeqb_false o x : oeqb o x = false <-> o <> Some x.
Proof. rewrite <- oeqb_true. destruct (oeqb o x); split; congruence. Qed.

Definition a_good_kept (a : ast) (x : N) : option N :=
  match a_good a with
  | Some g => if negb (N.eqb g x) && a_has a g then Some g else None
  | None => None
  end.

Lemma good_kept_some a x g :
  a_good_kept a x = Some g -> a_good a = Some g /\ g <> x /\ a_has a g = true.
Proof.
  unfold a_good_kept. destruct (a_good a) as [g0|]; [|discriminate].
  destruct (negb (N.eqb g0 x) && a_has a g0) eqn:E; [|discriminate].
  intros H. injection H as <-. apply andb_prop in E. destruct E as [E1 E2].
  apply Bool.negb_true_iff, N.eqb_neq in E1. auto.
Qed.

(* it is the guard of a_fall_back, which looks for the artifact once x's is forgotten *)
Lemma kept_guard a x g : negb (N.eqb g x) && a_has (a_del a x) g = negb (N.eqb g x) && a_has a g.
Proof. cbn. destruct (N.eqb g x); reflexivity. Qed.

Lemma fall_back_fields a x :
  a_sel (a_fall_back a x) =
    match (if oeqb (a_sel a) x then None else a_sel a) with Some s => Some s | None => a_good_kept a x end /\
  a_good (a_fall_back a x) = a_good_kept a x /\
  a_boot (a_fall_back a x) = a_boot a /\ a_ban (a_fall_back a x) = a_ban a.
Proof.
  unfold a_fall_back, a_good_kept. destruct (a_good a) as [g|] eqn:Eg.
  - rewrite kept_guard. destruct (negb (N.eqb g x) && a_has a g); cbn; rewrite ?Eg; [auto|].
    destruct (if oeqb (a_sel a) x then None else a_sel a); auto.
  - cbn. rewrite Eg. destruct (if oeqb (a_sel a) x then None else a_sel a); auto.
Qed.

Lemma a_fall_back_sel a x :
  a_sel (a_fall_back a x) =
  match (if oeqb (a_sel a) x then None else a_sel a) with Some s => Some s | None => a_good_kept a x end.
Proof. apply fall_back_fields. Qed.
Lemma a_fall_back_good a x : a_good (a_fall_back a x) = a_good_kept a x.
Proof. apply fall_back_fields. Qed.
Lemma a_fall_back_boot a x : a_boot (a_fall_back a x) = a_boot a.
Proof. apply fall_back_fields. Qed.
Lemma a_fall_back_ban a x : a_ban (a_fall_back a x) = a_ban a.
Proof. apply fall_back_fields. Qed.

(* only x's artifact goes: a last good patch that is dropped is x or had none left, so that forgetting its
   artifact changes nothing *)
Lemma a_fall_back_has a x k : a_has (a_fall_back a x) k = if N.eqb k x then false else a_has a k.
Proof.
  unfold a_fall_back. destruct (a_good a) as [g|]; [|reflexivity].
  rewrite kept_guard. destruct (negb (N.eqb g x) && a_has a g) eqn:Ec; [reflexivity|]. cbn.
  destruct (N.eqb_spec k g) as [->|_]; [|reflexivity].
  destruct (N.eqb g x); [reflexivity|]. symmetry. exact Ec.
Qed.

Lemma a_fall_back_sel_some a x n :
  a_sel (a_fall_back a x) = Some n -> n <> x /\ (a_sel a = Some n \/ a_good_kept a x = Some n).
Proof.
  assert (K : a_good_kept a x = Some n -> n <> x /\ (a_sel a = Some n \/ a_good_kept a x = Some n)).
  { intros H. split; [apply (good_kept_some a x n H)|right; exact H]. }
  rewrite a_fall_back_sel. destruct (oeqb (a_sel a) x) eqn:E; [exact K|].
  apply oeqb_false in E. destruct (a_sel a) as [s|]; [|exact K].
  intros H. injection H as <-. split; [congruence|left; reflexivity].
Qed.

(* C02 on the abstract machine *)
Definition A_ban (a : ast) : Prop :=
  forall n, In n (a_ban a) -> a_sel a <> Some n /\ a_good a <> Some n /\ a_boot a <> Some n.

(* a fall back from x clears x from the selection and the last good patch: for x itself it is enough that it
   is not booting *)
Lemma A_ban_fall_back_from a x :
  (forall n, In n (a_ban a) -> (n <> x -> a_sel a <> Some n /\ a_good a <> Some n) /\ a_boot a <> Some n) ->
  A_ban (a_fall_back a x).
Proof.
  intros H n Hn. rewrite a_fall_back_ban in Hn. destruct (H n Hn) as [H1 H3].
  assert (K : a_good_kept a x <> Some n).
  { intros E. apply good_kept_some in E. destruct E as (Eg & Ex & _). destruct (H1 Ex) as [_ Hg]. exact (Hg Eg). }
  rewrite a_fall_back_good, a_fall_back_boot. repeat split; auto.
  intros E. apply a_fall_back_sel_some in E. destruct E as [Ex [E|E]]; [|exact (K E)].
  destruct (H1 Ex) as [Hs _]. exact (Hs E).
Qed.

Lemma A_ban_fall_back a x : A_ban a -> A_ban (a_fall_back a x).
Proof. intros H. apply A_ban_fall_back_from. intros n Hn. destruct (H n Hn) as (H1 & H2 & H3). auto. Qed.

Lemma A_ban_rollback l : forall a, A_ban a -> A_ban (a_rollback a l).
Proof. induction l as [|x l IH]; intros a H; cbn; auto. apply IH, A_ban_fall_back, H. Qed.

Lemma A_ban_query a : A_ban a -> A_ban (fst (a_query a)).
Proof.
  intros H. unfold a_query. destruct (a_sel a) as [n|]; [|exact H].
  destruct (a_has a n); [exact H|]. cbn. apply A_ban_fall_back, H.
Qed.

Lemma A_ban_start a : A_ban a -> A_ban (a_start a).
Proof.
  intros H. unfold a_start. pose proof (A_ban_query a H) as H1.
  destruct (a_query a) as [a' r]. cbn in H1. destruct r as [r0|]; [|exact H1].
  intros n Hn. cbn in *. destruct (H1 n Hn) as (X & Y & Z). auto.
Qed.

Lemma A_ban_success a : A_ban a -> A_ban (a_success a).
Proof.
  intros H. unfold a_success. destruct (a_boot a) as [b|] eqn:E; [|exact H].
  intros n Hn. cbn in *. destruct (H n Hn) as (X & Y & Z). rewrite E in Z. repeat split; auto; try congruence; try discriminate.
Qed.

Lemma in_add_bad n b l : In n (a_add_bad b l) -> n = b \/ In n l.
Proof. unfold a_add_bad. destruct (inb b l); cbn; intuition. Qed.

Lemma A_ban_failure a : A_ban a -> A_ban (a_failure a).
Proof.
  intros H. unfold a_failure. destruct (a_boot a) as [b|]; [|exact H].
  (* once banned, the booting number may still be selected or last good: falling back from it clears both *)
  apply A_ban_fall_back_from. cbn. intros n Hn. split; [|discriminate].
  intros Hb. apply in_add_bad in Hn. destruct Hn as [->|Hn]; [contradiction|].
  destruct (H n Hn) as (H1 & H2 & _). auto.
Qed.

Lemma install_fields a n :
  a_sel (a_install a n) = Some n /\ a_good (a_install a n) = a_good a /\
  a_boot (a_install a n) = a_boot a /\ a_ban (a_install a n) = a_ban a.
Proof.
  unfold a_install. destruct (a_sel a) as [x|]; [destruct (a_good a) as [l|] eqn:Eg|].
  - destruct (negb (N.eqb l x) && negb (N.eqb x n) && negb (oeqb (a_boot a) x)); cbn; rewrite ?Eg; auto.
  - cbn. rewrite Eg. auto.
  - cbn. auto.
Qed.

Lemma A_ban_install a n : A_ban a -> ~ In n (a_ban a) -> A_ban (a_install a n).
Proof.
  intros H Hn k Hk. destruct (install_fields a n) as (E1 & E2 & E3 & E4).
  rewrite E4 in Hk. rewrite E1, E2, E3. destruct (H k Hk) as (X & Y & Z).
  repeat split; auto. intros E. inversion E; subst. contradiction.
Qed.

(* C01 on the abstract machine: without outside damage the selection always has its artifact *)
Definition A_sel_has (a : ast) : Prop := forall n, a_sel a = Some n -> a_has a n = true.

Lemma A_sel_has_fall_back a x : A_sel_has a -> A_sel_has (a_fall_back a x).
Proof.
  intros H n Hn. apply a_fall_back_sel_some in Hn. destruct Hn as [Hx Hn].
  rewrite a_fall_back_has. apply N.eqb_neq in Hx. rewrite Hx.
  destruct Hn as [Hn|Hn]; [apply H, Hn|apply good_kept_some in Hn; apply Hn].
Qed.

Lemma A_sel_has_rollback l : forall a, A_sel_has a -> A_sel_has (a_rollback a l).
Proof. induction l as [|x l IH]; intros a H; cbn; auto. apply IH, A_sel_has_fall_back, H. Qed.

Lemma A_sel_has_success a : A_sel_has a -> A_sel_has (a_success a).
Proof.
  intros H. unfold a_success. destruct (a_boot a) as [b|]; [|exact H].
  intros n Hn. cbn in *. assert (E : oeqb (a_sel a) n = true) by (apply oeqb_true; exact Hn).
  rewrite E. cbn. rewrite Bool.andb_false_r. apply H. exact Hn.
Qed.

Lemma A_sel_has_failure a : A_sel_has a -> A_sel_has (a_failure a).
Proof.
  intros H. unfold a_failure. destruct (a_boot a) as [b|]; [|exact H].
  apply A_sel_has_fall_back. exact H.
Qed.

Lemma A_sel_has_install a n : A_sel_has (a_install a n).
Proof.
  intros k Hk. unfold a_install in *. cbn in Hk. inversion Hk; subst k.
  destruct (a_sel a) as [x|]; [destruct (a_good a) as [l|]|]; cbn; try (rewrite N.eqb_refl; reflexivity).
  destruct (negb (N.eqb l x) && negb (N.eqb x n) && negb (oeqb (a_boot a) x)) eqn:Ec; cbn.
  - apply andb_prop in Ec. destruct Ec as [Ec _]. apply andb_prop in Ec. destruct Ec as [_ E2].
    apply Bool.negb_true_iff, N.eqb_neq in E2.
    destruct (N.eqb_spec n x) as [->|_]; [congruence|]. rewrite N.eqb_refl. reflexivity.
  - rewrite N.eqb_refl. reflexivity.
Qed.

Theorem query_is_the_selection a : A_sel_has a -> a_query a = (a, a_sel a).
Proof.
  intros H. unfold a_query. destruct (a_sel a) as [n|] eqn:E; [|reflexivity].
  rewrite (H n E). reflexivity.
Qed.

Lemma A_sel_has_start a : A_sel_has a -> A_sel_has (a_start a).
Proof.
  intros H. unfold a_start. rewrite (query_is_the_selection a H).
  destruct (a_sel a) as [s0|] eqn:Es; [|exact H]. intros n Hn. cbn in *. apply H. exact Hn.
Qed.

(* C09 / C10 on the abstract machine *)
Theorem install_selects a n : a_sel (a_install a n) = Some n.
Proof. reflexivity. Qed.

Theorem fall_back_other_keeps_selection a x n :
  a_sel a = Some n -> x <> n -> a_sel (a_fall_back a x) = Some n.
Proof.
  intros Hs Hx. rewrite a_fall_back_sel, Hs.
  replace (oeqb (Some n) x) with false; [reflexivity|]. symmetry. apply oeqb_false. congruence.
Qed.

Theorem fall_back_removes a x : a_sel (a_fall_back a x) <> Some x /\ a_has (a_fall_back a x) x = false.
Proof.
  split; [intros E; apply a_fall_back_sel_some in E; destruct E as [E _]; apply E; reflexivity|].
  rewrite a_fall_back_has, N.eqb_refl. reflexivity.
Qed.

(* C03: the fallback target *)
Theorem a_fall_back_target a x :
  a_sel a = Some x ->
  a_sel (a_fall_back a x) =
  match a_good a with
  | Some g => if negb (N.eqb g x) && a_has a g then Some g else None
  | None => None
  end.
Proof. intros Hs. rewrite a_fall_back_sel, Hs. cbn [oeqb]. rewrite N.eqb_refl. reflexivity. Qed.

(* C18 on the abstract machine *)
Definition a_current (a : ast) : option N := match a_boot a with Some b => Some b | None => a_good a end.

Theorem start_sets_current a n :
  A_sel_has a -> a_sel a = Some n -> a_current (a_start a) = Some n.
Proof. intros H Hs. unfold a_start. rewrite (query_is_the_selection a H), Hs. reflexivity. Qed.
Theorem success_keeps_current a b : a_boot a = Some b -> a_current (a_success a) = Some b.
Proof. intros E. unfold a_success, a_current. rewrite E. reflexivity. Qed.
