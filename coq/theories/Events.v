(* C17, the "never otherwise" half: queries, launch start/success, checks and restarts neither
   queue nor drop events, and none of them except a launch-success report puts an event on the wire. *)
From UV Require Import Base Model Sections Inv Calls.

Section Events.
Variable sha : bytes -> bytes.
Variable sigok : string -> string -> string -> bool.
Variable zdec : bytes -> bytes.
Variable base : bytes.

Notation do_check := (do_check sha sigok).
Notation step := (step sha sigok zdec base).

Definition quiet (o : op) : Prop :=
  match o with
  | ONextNum | ONextPath | OCurNum | OStart | OSuccess | OAuto | OKill | OCheck _ _ => True
  | _ => False
  end.

Theorem quiet_calls w o c :
  w_cfg w = Some c -> quiet o ->
  (sj (w_disk (fst (fst (step w o)))) = sj (w_disk w) \/
   sj (w_disk (fst (fst (step w o)))) = sj (norm c (w_disk w))) /\
  (forall e, In (NEvent e) (snd (step w o)) -> o = OSuccess).
Proof.
  intros Hc Hq. split.
  - (* none of their sections writes state.json: it stays, or is what the first load made of it *)
    apply (step_inv sha sigok zdec base
             (fun x => sj x = sj (w_disk w) \/ sj x = sj (norm c (w_disk w)))); [| |left; reflexivity].
    + intros g ->. contradiction.
    + intros c' k x Ha Hk H. assert (c' = c) by (destruct o; cbn in Ha; try contradiction; congruence). subst c'.
      pose proof (sec_disk_sj sha sigok c k x) as E. right.
      assert (sj (norm c x) = sj (norm c (w_disk w))) as <-
        by (destruct H as [H|H]; [apply norm_sj_congr, H|rewrite (norm_sj_congr c _ _ H), norm_idem; reflexivity]).
      destruct o; try contradiction; cbn in Hk; try discriminate; try (injection Hk as <-; exact E).
      destruct k; try exact E; destruct Hk as [Hk|Hk]; discriminate.
  - (* of these calls only a success report and a check have a log at all *)
    destruct w as [d cf]. cbn in Hc. subst cf.
    destruct o as [relv y pk| | | | | | | | |ch r|ch r dl|g]; try contradiction; cbn; auto;
      try (intros e []);
      try (destruct (cs_next sha sigok c d); intros e []);
      try (destruct (cs_success c d); reflexivity).
    pose proof (do_check_log sha sigok c d ch r) as Hl. destruct (do_check c d ch r) as [[d' b] l]. cbn in *. subst l.
    intros e [He|[]]. discriminate.
Qed.

Corollary quiet_calls_keep_queue w o c :
  w_cfg w = Some c -> stable (c_rel c) (w_disk w) -> quiet o ->
  evq_of c (w_disk (fst (fst (step w o)))) = evq_of c (w_disk w).
Proof.
  intros Hc Hs Hq. destruct (quiet_calls w o c Hc Hq) as [[H|H] _];
    unfold evq_of, load_s; rewrite H; [reflexivity|]. rewrite (norm_id c _ Hs). reflexivity.
Qed.

End Events.
