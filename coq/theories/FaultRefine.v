(* With no fault injected, the monadic operations of Fault.v compute exactly the
   pure operations of Model.v (so the crash/fault theorems speak about the same model the lifecycle
   theorems and the correspondence runs are about). *)
From UV Require Import Base Model PMLemmas Fault.

Definition NF {A} (m : M A) (d : disk) (a : A) (d' : disk) : Prop :=
  forall c, exists c', m NoFault c d = (Ret a, c', d').
Definition NFerr {A} (m : M A) (d : disk) (d' : disk) : Prop :=
  forall c, exists c', m NoFault c d = (Err, c', d').
(* for calls that may end in an error, which without faults is a logical one, not an I/O error *)
Definition NFd {A} (m : M A) (d d' : disk) : Prop :=
  forall c, exists o c', m NoFault c d = (o, c', d') /\ o <> Died.

Lemma NF_ret {A} (a : A) d : NF (ret a) d a d.
Proof. intros c. exists c. reflexivity. Qed.

Lemma NFerr_fail {A} d : NFerr (@fail A) d d.
Proof. intros c. exists c. reflexivity. Qed.

Lemma NF_get d : NF get d d d.
Proof. intros c. exists c. reflexivity. Qed.

Lemma NF_touch f d : NF (touch f) d tt (f d).
Proof. intros c. exists c. reflexivity. Qed.

Lemma NF_mut f g d : NF (mut f g) d tt (f d).
Proof. intros c. exists (S c). reflexivity. Qed.

Lemma NF_mut_swallow f g d : NF (mut_swallow f g) d tt (f d).
Proof. intros c. exists (S c). reflexivity. Qed.

Lemma NF_rd d : NF rd d true d.
Proof. intros c. exists (S c). reflexivity. Qed.

Lemma NF_bind {A B} (m : M A) (f : A -> M B) d a d1 b d2 :
  NF m d a d1 -> NF (f a) d1 b d2 -> NF (bind m f) d b d2.
Proof.
  intros H1 H2 c. destruct (H1 c) as [c1 E1]. destruct (H2 c1) as [c2 E2].
  exists c2. unfold bind. rewrite E1. exact E2.
Qed.

Lemma NFd_bind {A B} (m : M A) (f : A -> M B) d a d1 d2 :
  NF m d a d1 -> NFd (f a) d1 d2 -> NFd (bind m f) d d2.
Proof.
  intros H1 H2 c. destruct (H1 c) as [c1 E1]. destruct (H2 c1) as (o & c2 & E2 & Ho).
  exists o, c2. unfold bind. rewrite E1. auto.
Qed.

Lemma NF_ignore {A} (m : M A) d a d1 : NF m d a d1 -> NF (ignore_err m) d tt d1.
Proof. intros H c. destruct (H c) as [c1 E]. exists c1. unfold ignore_err. rewrite E. reflexivity. Qed.

Lemma NF_ignore_err {A} (m : M A) d d1 : NFerr m d d1 -> NF (ignore_err m) d tt d1.
Proof. intros H c. destruct (H c) as [c1 E]. exists c1. unfold ignore_err. rewrite E. reflexivity. Qed.

Lemma NF_attempt {A} (m : M A) d a d1 : NF m d a d1 -> NF (attempt m) d true d1.
Proof. intros H c. destruct (H c) as [c1 E]. exists c1. unfold attempt. rewrite E. reflexivity. Qed.

Lemma NF_attempt_err {A} (m : M A) d d1 : NFerr m d d1 -> NF (attempt m) d false d1.
Proof. intros H c. destruct (H c) as [c1 E]. exists c1. unfold attempt. rewrite E. reflexivity. Qed.

Lemma NF_NFd {A} (m : M A) d a d' : NF m d a d' -> NFd m d d'.
Proof. intros H c. destruct (H c) as [c' E]. exists (Ret a), c'. split; [exact E|discriminate]. Qed.

Lemma NFerr_NFd {A} (m : M A) d d' : NFerr m d d' -> NFd m d d'.
Proof. intros H c. destruct (H c) as [c' E]. exists Err, c'. split; [exact E|discriminate]. Qed.

Lemma NFd_ignore {A} (m : M A) d d' : NFd m d d' -> NFd (ignore_err m) d d'.
Proof.
  intros H c. destruct (H c) as (o & c' & E & Ho). exists (Ret tt), c'. unfold ignore_err. rewrite E.
  split; [destruct o; congruence|discriminate].
Qed.

Lemma NFd_attempt {A} (m : M A) d d' : NFd m d d' -> NFd (attempt m) d d'.
Proof.
  intros H c. destruct (H c) as (o & c' & E & Ho). unfold attempt. rewrite E.
  destruct o; [exists (Ret true)|exists (Ret false)|congruence]; exists c'; split; (reflexivity || discriminate).
Qed.

Lemma NFd_bind_ret {A B} (m : M A) (g : A -> B) d d' : NFd m d d' -> NFd (x <- m ;; ret (g x)) d d'.
Proof.
  intros H c. destruct (H c) as (o & c' & E & Ho). unfold bind. rewrite E.
  destruct o as [a| |]; [exists (Ret (g a))|exists Err|congruence]; exists c'; split; (reflexivity || discriminate).
Qed.

(* the pure model takes the results of its steps apart with let '(d, x) := ...; the monadic side names them by
   projections *)
Lemma let_pair {A B C} (p : A * B) (f : A -> B -> C) : (let '(a, b) := p in f a b) = f (fst p) (snd p).
Proof. destruct p; reflexivity. Qed.

Lemma NF_write_pj s d : NF (write_pj s) d tt (save_p d s).
Proof. exact (NF_bind _ _ _ _ _ _ _ (NF_mut _ _ _) (NF_mut_swallow _ _ _)). Qed.

Lemma NF_write_sj s d : NF (write_sj s) d tt (set_sj d (JOk s)).
Proof. exact (NF_bind _ _ _ _ _ _ _ (NF_mut _ _ _) (NF_mut_swallow _ _ _)). Qed.

Lemma NF_rm_art n d : NF (rm_art n) d tt (del_art d n).
Proof.
  unfold rm_art. eapply NF_bind; [apply NF_get|].
  destruct (arts d n) as [[|b]|] eqn:E.
  - apply NF_mut.
  - eapply NF_bind; apply NF_mut.
  - apply NF_touch.
Qed.

Section Refine.
Variable sha : bytes -> bytes.
Variable sigok : string -> string -> string -> bool.
Variable zdec : bytes -> bytes.
Variable base : bytes.

Lemma NF_validate key m d : NF (validateM sha sigok key m) d (validate sha sigok key d m) d.
Proof.
  unfold validateM. eapply NF_bind; [apply NF_get|].
  destruct key as [k|]; [|apply NF_ret]. destruct (arts d (m_num m)) as [[|bb]|] eqn:Ea; try apply NF_ret.
  destruct (m_sig m) eqn:Es; [|apply NF_ret]. destruct (N.eqb (blen bb) (m_size m)) eqn:El.
  - eapply NF_bind; [apply NF_rd|]. cbn [andb]. apply NF_ret.
  - replace (validate sha sigok (Some k) d m) with false; [apply NF_ret|].
    unfold validate. rewrite Ea, El. reflexivity.
Qed.

Lemma NF_fall_back key s b d :
  NF (fall_backM sha sigok key s b) d (snd (fall_back sha sigok key d s b), true) (fst (fall_back sha sigok key d s b)).
Proof.
  assert (Hs : forall s' d0, NF (ok <- attempt (write_pj s') ;; ret (s', ok)) d0 (s', true) (save_p d0 s')).
  { intros s' d0. eapply NF_bind; [eapply NF_attempt, NF_write_pj|]. apply NF_ret. }
  unfold fall_backM, fall_back.
  eapply NF_bind; [eapply NF_ignore, NF_rm_art|].
  destruct (lb s) as [l|]; [|apply Hs].
  destruct (negb (N.eqb (m_num l) b)); cbn [andb].
  - eapply NF_bind; [apply NF_validate|]. destruct (validate sha sigok key (del_art d b) l); [apply Hs|].
    eapply NF_bind; [eapply NF_ignore, NF_rm_art|]. apply Hs.
  - eapply NF_bind; [apply NF_ret|]. eapply NF_bind; [eapply NF_ignore, NF_rm_art|]. apply Hs.
Qed.

Lemma NF_next_boot key s d :
  NF (next_bootM sha sigok key s) d
     (snd (fst (next_boot sha sigok key d s)), snd (next_boot sha sigok key d s)) (fst (fst (next_boot sha sigok key d s))).
Proof.
  unfold next_bootM, next_boot. destruct (nb s) as [m|]; [|apply NF_ret].
  eapply NF_bind; [apply NF_validate|]. destruct (validate sha sigok key d m); [apply NF_ret|].
  rewrite let_pair. eapply NF_bind; [apply NF_fall_back|]. apply NF_ret.
Qed.

Lemma NF_boot_failure key s n d :
  NF (boot_failureM sha sigok key s n) d (snd (boot_failure sha sigok key d s n), true) (fst (boot_failure sha sigok key d s n)).
Proof. apply NF_fall_back. Qed.

Lemma NF_add_patch s n b h sg d :
  NF (add_patchM s n b h sg) d (snd (add_patch d s n b h sg)) (fst (add_patch d s n b h sg)).
Proof.
  unfold add_patchM, add_patch. eapply NF_bind; [apply NF_get|].
  (* whether or not the directory is made first, the rename leaves put_art d n b *)
  eapply NF_bind with (d1 := match arts d n with Some _ => d | None => set_arts d (upd_art (arts d) n (Some ADir)) end).
  { destruct (arts d n); [apply NF_ret|apply NF_mut]. }
  eapply NF_bind; [apply NF_mut|].
  eapply NF_bind; [|eapply NF_bind; [apply NF_write_pj|apply NF_ret]].
  destruct (nb s) as [x|]; [destruct (lb s) as [l|]|]; try apply NF_ret.
  destruct (negb (N.eqb (m_num l) (m_num x)) && negb (N.eqb (m_num x) n) && negb (numeq (cb s) (m_num x)));
    [eapply NF_ignore, NF_rm_art|apply NF_ret].
Qed.

Lemma NF_create_new r d : NF (create_newM r) d tt (fresh_disk r).
Proof.
  unfold create_newM. eapply NF_bind; [apply NF_rd|].
  eapply NF_bind.
  { eapply NF_attempt. eapply NF_bind; [apply NF_write_pj|]. apply NF_mut. }
  cbn iota. eapply NF_ignore.
  replace (fresh_disk r) with
    (set_sj (set_junk (set_arts (save_p d pempty) (fun _ => None)) false) (JOk {| rel := r; evq := [] |})) by reflexivity.
  apply NF_write_sj.
Qed.

Lemma NF_load c d :
  NF (loadM c) d (load_s c (norm c d), load_p (norm c d)) (norm c d).
Proof.
  assert (Hn : forall x : sstate * pstate, NF (create_newM (c_rel c) ;;; ret x) d x (fresh_disk (c_rel c))).
  { intros x. eapply NF_bind; [apply NF_create_new|]. apply NF_ret. }
  unfold loadM, norm. eapply NF_bind; [apply NF_rd|]. eapply NF_bind; [apply NF_get|]. cbn iota.
  destruct (sj d) as [| |s] eqn:E; [apply Hn..|].
  eapply NF_bind; [apply NF_rd|]. cbn iota. destruct (String.eqb (rel s) (c_rel c)) eqn:Er; [|apply Hn].
  unfold load_s. rewrite E. apply NF_ret.
Qed.

Lemma NF_cs_next c d : NF (cs_nextM sha sigok c) d (snd (cs_next sha sigok c d)) (fst (cs_next sha sigok c d)).
Proof.
  unfold cs_nextM, cs_next. rewrite !let_pair.
  eapply NF_bind; [apply NF_load|]. eapply NF_bind; [apply NF_next_boot|]. apply NF_ret.
Qed.

Lemma NF_cs_current c d : NF (cs_currentM c) d (snd (cs_current c d)) (fst (cs_current c d)).
Proof. eapply NF_bind; [apply NF_load|]. apply NF_ret. Qed.

Lemma NF_cs_start c d : NF (cs_startM sha sigok c) d tt (cs_start sha sigok c d).
Proof.
  unfold cs_startM, cs_start. rewrite !let_pair.
  eapply NF_bind; [apply NF_load|]. eapply NF_bind; [apply NF_next_boot|]. cbn [fst snd].
  destruct (snd (next_boot sha sigok _ _ _)); [apply NF_write_pj|apply NF_ret].
Qed.

Lemma NF_cs_success c d : NF (cs_successM c) d (snd (cs_success c d)) (fst (cs_success c d)).
Proof.
  unfold cs_successM, cs_success. eapply NF_bind; [apply NF_load|]. cbn [snd].
  destruct (cb (load_p (norm c d))) as [b|] eqn:E; [|apply NF_ret].
  unfold boot_success. rewrite E. cbn [fst snd].
  eapply NF_bind; [unfold sweepM; eapply NF_ignore, NF_mut|].
  eapply NF_bind; [apply NF_write_pj|]. apply NF_ret.
Qed.

(* queueing the failure event after boot_failure, which leaves state.json alone *)
Lemma NF_queue_event c d0 d1 e :
  sj d1 = sj d0 ->
  NF (write_sj {| rel := rel (load_s c d0); evq := evq (load_s c d0) ++ [e] |}) d1 tt (queue_event c d1 e).
Proof. intros Hs. unfold queue_event, load_s. rewrite Hs. apply NF_write_sj. Qed.

Lemma NFd_cs_failure c d : NFd (cs_failureM sha sigok c) d (fst (cs_failure sha sigok c d)).
Proof.
  unfold cs_failureM, cs_failure. eapply NFd_bind; [apply NF_load|]. cbn [fst snd].
  destruct (cb (load_p (norm c d))) as [b|]; [|apply NFerr_NFd, NFerr_fail].
  rewrite let_pair. eapply NFd_bind; [eapply NF_ignore, NF_boot_failure|].
  eapply NF_NFd, NF_queue_event, fall_back_sj.
Qed.

Lemma NFd_cs_init_recover c d : NFd (cs_init_recoverM sha sigok c) d (cs_init_recover sha sigok c d).
Proof.
  unfold cs_init_recoverM, cs_init_recover. eapply NFd_bind; [apply NF_load|]. cbn [fst snd].
  destruct (cb (load_p (norm c d))) as [b|]; [|eapply NF_NFd, NF_ret].
  rewrite let_pair. eapply NFd_bind; [apply NF_boot_failure|].
  eapply NF_NFd, NF_queue_event, fall_back_sj.
Qed.

Lemma NF_rollback_loop key l : forall s d,
  NF (rollback_loopM sha sigok key s l) d (snd (rollback_loop sha sigok key d s l)) (fst (rollback_loop sha sigok key d s l)).
Proof.
  induction l as [|n l IH]; intros s d; cbn [rollback_loopM rollback_loop]; [apply NF_ret|].
  rewrite let_pair. eapply NF_bind; [apply NF_fall_back|]. apply IH.
Qed.

Lemma NF_cs_rollback c l d : NF (cs_rollbackM sha sigok c l) d tt (cs_rollback sha sigok c d l).
Proof. eapply NF_bind; [apply NF_load|]. eapply NF_bind; [apply NF_rollback_loop|]. apply NF_ret. Qed.

Lemma NF_rollbacks c (o : option (list N)) d :
  NF (match o with Some l => cs_rollbackM sha sigok c l | None => ret tt end) d tt
     (match o with Some l => cs_rollback sha sigok c d l | None => d end).
Proof. destruct o; [apply NF_cs_rollback|apply NF_ret]. Qed.

Lemma NF_cs_is_bad c n d : NF (cs_is_badM c n) d (snd (cs_is_bad c d n)) (fst (cs_is_bad c d n)).
Proof. eapply NF_bind; [apply NF_load|]. apply NF_ret. Qed.

Lemma NF_cs_copy c d : NF (cs_copy_eventsM c) d (snd (cs_copy_events c d)) (fst (cs_copy_events c d)).
Proof. eapply NF_bind; [apply NF_load|]. apply NF_ret. Qed.

Lemma NF_cs_clear c d : NF (cs_clear_eventsM c) d tt (cs_clear_events c d).
Proof. eapply NF_bind; [apply NF_load|]. eapply NF_ignore, NF_write_sj. Qed.

Lemma NF_cs_install c p b d : NF (cs_installM c p b) d (snd (cs_install c d p b)) (fst (cs_install c d p b)).
Proof.
  unfold cs_installM, cs_install. eapply NF_bind; [apply NF_load|]. cbn [snd].
  destruct (inb (p_num p) (bad (load_p (norm c d)))); [apply NF_ret|].
  rewrite let_pair. eapply NF_bind; [apply NF_add_patch|]. apply NF_ret.
Qed.

Lemma NF_should_install c n d :
  NF (should_installM sha sigok c n) d (snd (should_install sha sigok c d n)) (fst (should_install sha sigok c d n)).
Proof.
  unfold should_installM, should_install. rewrite !let_pair.
  eapply NF_bind; [apply NF_cs_is_bad|]. destruct (snd (cs_is_bad c d n)); [apply NF_ret|].
  eapply NF_bind; [apply NF_cs_next|].
  destruct (snd (cs_next sha sigok c _)) as [k|]; [destruct (N.eqb k n)|]; apply NF_ret.
Qed.

Lemma NFd_do_check c ch r d : NFd (do_checkM sha sigok c r) d (fst (fst (do_check sha sigok c d ch r))).
Proof.
  unfold do_checkM, do_check. destruct r as [rs|]; [|apply NFerr_NFd, NFerr_fail].
  eapply NFd_bind; [apply NF_rollbacks|].
  destruct (r_patch rs) as [p|]; [|eapply NF_NFd, NF_ret].
  rewrite let_pair. eapply NFd_bind; [apply NF_should_install|]. eapply NF_NFd, NF_ret.
Qed.

Lemma NF_dstep d : NF dstep d tt d.
Proof. apply NF_mut. Qed.

Lemma NF_download_some bdl out d : inflate zdec base bdl = Some out -> NF (downloadM zdec base bdl) d out d.
Proof.
  intros E. unfold downloadM. rewrite E. do 4 (eapply NF_bind; [apply NF_dstep|]).
  eapply NF_bind with (d1 := d). { destruct (8192 <=? blen out); [apply NF_dstep|apply NF_ret]. }
  eapply NF_bind; [apply NF_rd|]. apply NF_ret.
Qed.

Lemma NFerr_download_none {B} bdl (f : bytes -> M B) d :
  inflate zdec base bdl = None -> NFerr (fileb <- downloadM zdec base bdl ;; f fileb) d d.
Proof. intros E c. unfold bind, downloadM. rewrite E. eexists. reflexivity. Qed.

Lemma NFd_do_update c ch r dl d :
  NFd (do_updateM sha sigok zdec base c r dl) d (fst (fst (do_update sha sigok zdec base c d ch r dl))).
Proof.
  unfold do_updateM, do_update. rewrite !let_pair.
  eapply NFd_bind; [apply NF_cs_copy|]. eapply NFd_bind; [apply NF_cs_clear|].
  destruct r as [rs|]; [|apply NFerr_NFd, NFerr_fail].
  eapply NFd_bind; [apply NF_rollbacks|].
  destruct (negb (r_avail rs)); [eapply NF_NFd, NF_ret|].
  destruct (r_patch rs) as [p|]; [|apply NFerr_NFd, NFerr_fail].
  rewrite let_pair. eapply NFd_bind; [apply NF_should_install|].
  destruct (snd (should_install sha sigok c _ _)); try (eapply NF_NFd, NF_ret).
  destruct dl as [bdl|]; [|apply NFerr_NFd, NFerr_fail].
  destruct (inflate zdec base bdl) as [out|] eqn:Einf; [|apply NFerr_NFd, NFerr_download_none, Einf].
  eapply NFd_bind; [apply NF_download_some, Einf|].
  destruct (hash_ok sha out (p_hash p)); [|apply NFerr_NFd, NFerr_fail].
  rewrite let_pair. eapply NF_NFd, NF_cs_install.
Qed.

Theorem call_refines c o d :
  (forall r y p, o <> OInit r y p) -> o <> OKill -> (forall g, o <> ODamage g) ->
  NFd (callM sha sigok zdec base c o) d
      (w_disk (fst (fst (step sha sigok zdec base {| w_disk := d; w_cfg := Some c |} o)))).
Proof.
  intros Hi Hk Hd. unfold callM. destruct o; cbn [step w_cfg w_disk]; rewrite ?let_pair;
    try (exfalso; eapply Hi; reflexivity); try (exfalso; apply Hk; reflexivity);
    try (exfalso; eapply Hd; reflexivity); try (eapply NF_NFd, NF_ret); apply NFd_bind_ret.
  - eapply NF_NFd, NF_cs_next.
  - eapply NF_NFd, NF_cs_next.
  - eapply NF_NFd, NF_cs_current.
  - eapply NFd_ignore, NF_NFd, NF_cs_start.
  - eapply NFd_ignore, NF_NFd, NF_cs_success.
  - apply NFd_ignore, NFd_cs_failure.
  - apply NFd_attempt, NFd_do_check.
  - apply NFd_attempt, NFd_do_update.
Qed.

Theorem init_refines c d :
  NFd (initM sha sigok c) d (cs_init_recover sha sigok c d).
Proof. apply NFd_bind_ret, NFd_attempt, NFd_cs_init_recover. Qed.

End Refine.
