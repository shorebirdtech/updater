(* Deadlock freedom and termination of the two-mutex discipline (C12). *)
From UV Require Import Base LockSem.

Definition th_ok (t : th) : Prop :=
  match inside t with
  | Some b => wfa (depth t) b = Some 0%nat /\ wfp 0 (rest t) = true
  | None => wfp (depth t) (rest t) = true
  end.

Definition th_inv (i : nat) (t : th) (co uo : option nat) : Prop :=
  th_ok t /\ (depth t <= 1)%nat /\
  (depth t = 1%nat <-> co = Some i) /\ (inside t <> None <-> uo = Some i).

Definition sys_ok (s : sys) : Prop :=
  (forall i t, nth_error (threads s) i = Some t -> th_inv i t (cfg_owner s) (upd_owner s)) /\
  (forall j, cfg_owner s = Some j -> nth_error (threads s) j <> None).

Lemma nth_error_set_nth {A} (l : list A) : forall i j x,
  nth_error (set_nth i x l) j =
  if Nat.eqb i j then match nth_error l j with Some _ => Some x | None => None end else nth_error l j.
Proof.
  induction l as [|y l IH]; intros i j x; cbn [set_nth].
  - destruct i, j; cbn; try reflexivity; destruct (Nat.eqb _ _); reflexivity.
  - destruct i as [|i], j as [|j]; cbn; try reflexivity. apply IH.
Qed.

Lemma init_ok ps : Forall (fun p => wfp 0 p = true) ps -> sys_ok (init_sys ps).
Proof.
  intros H. split.
  - intros i t Ht. unfold init_sys in *; cbn in *.
    rewrite nth_error_map in Ht. destruct (nth_error ps i) as [p|] eqn:E; [|discriminate].
    inversion Ht; subst t. rewrite Forall_forall in H. specialize (H p (nth_error_In _ _ E)).
    unfold th_inv, th_ok, start; cbn. repeat split; try lia; try discriminate; try congruence.
  - cbn. discriminate.
Qed.

Definition next_depth (a : act) (d : nat) : option nat :=
  match a with
  | ANet => if Nat.eqb d 0 then Some 0%nat else None
  | AAcq => if Nat.eqb d 0 then Some 1%nat else None
  | ARel => if Nat.eqb d 1 then Some 0%nat else None
  end.

Lemma wfa_cons d a b :
  wfa d (a :: b) = match next_depth a d with Some d' => wfa d' b | None => None end.
Proof. destruct a; cbn; destruct (Nat.eqb d _); reflexivity. Qed.

Lemma wfp_cons d a r :
  wfp d (IAct a :: r) = match next_depth a d with Some d' => wfp d' r | None => false end.
Proof. destruct a; cbn; destruct (Nat.eqb d _); reflexivity. Qed.

Lemma wfp_upd d body r : wfp d (IUpd body :: r) = true ->
  d = 0%nat /\ wfa 0 body = Some 0%nat /\ wfp 0 r = true.
Proof.
  cbn. destruct d as [|d]; cbn; [|discriminate].
  destruct (wfa 0 body) as [[|k]|]; cbn; try discriminate. auto.
Qed.

Definition moved (i : nat) (o o' : option nat) : Prop :=
  o' = o \/ (o = None /\ o' = Some i) \/ (o = Some i /\ o' = None).

(* The case analyses below end in conjunctions whose members are a hypothesis, a bound on a depth or on the work
   left, or a consequence of the equations between owners. *)
Ltac fin := cbn; repeat split; solve [assumption | lia | congruence | intuition congruence].

Lemma step_act_spec i a d co d1 :
  next_depth a d = Some d1 -> (d = 1%nat <-> co = Some i) ->
  (d1 <= 1)%nat /\
  match step_act i a d co with
  | Some (d', co') => d' = d1 /\ (d1 = 1%nat <-> co' = Some i) /\ moved i co co'
  | None => co <> None /\ co <> Some i
  end.
Proof.
  intros Hn Hco. unfold moved.
  destruct a; cbn in Hn; destruct d as [|[|d]]; try discriminate; injection Hn as <-.
  - (* a network callback leaves depth and owner as they are *)
    fin.
  - (* acquire: granted when the mutex is free, refused when it has an owner, who is not i at depth 0 *)
    destruct co; fin.
  - (* release, at depth 1: the owner is i *)
    fin.
Qed.

Lemma th_step_spec i t co uo :
  th_inv i t co uo ->
  match th_step i t co uo with
  | Some (t', co', uo') =>
      th_inv i t' co' uo' /\ moved i co co' /\ moved i uo uo' /\ (th_work t' < th_work t)%nat
  | None => th_done t = true \/ (co <> None /\ co <> Some i)
  end.
Proof.
  intros (Hok & Hle & Hco & Huo). destruct t as [ins rst d].
  unfold th_step, th_inv, th_ok, th_done, th_work in *. cbn [inside rest depth] in *.
  destruct ins as [[|a b]|].
  - (* leaving the update body: release the update mutex *)
    destruct Hok as [[= ->] Hr]. assert (Hu : uo = Some i) by (apply Huo; discriminate).
    unfold moved. fin.
  - destruct Hok as [Hw Hr]. rewrite wfa_cons in Hw.
    destruct (next_depth a d) as [d1|] eqn:En; [|discriminate].
    destruct (step_act_spec i a d co d1 En Hco) as [Hd1 Hs].
    destruct (step_act i a d co) as [[d' co1]|]; [|right; exact Hs].
    destruct Hs as (-> & Hco' & Mc). unfold moved in *. fin.
  - destruct rst as [|[a|body] r]; [left; reflexivity| |].
    + rewrite wfp_cons in Hok.
      destruct (next_depth a d) as [d1|] eqn:En; [|discriminate].
      destruct (step_act_spec i a d co d1 En Hco) as [Hd1 Hs].
      destruct (step_act i a d co) as [[d' co1]|]; [|right; exact Hs].
      destruct Hs as (-> & Hco' & Mc). unfold moved in *. fin.
    + (* the try-lock: into the body when the update mutex is free, past it otherwise *)
      apply wfp_upd in Hok. destruct Hok as (-> & Hb & Hr). unfold moved. destruct uo as [k|]; fin.
Qed.

Lemma moved_other i j o o' : moved i o o' -> i <> j -> (o' = Some j <-> o = Some j).
Proof. intros [->|[[-> ->]|[-> ->]]] Hij; split; congruence. Qed.

Lemma sys_step_ok s i s' : sys_ok s -> sys_step s i = Some s' -> sys_ok s'.
Proof.
  intros [HA HB] H. unfold sys_step in H.
  destruct (nth_error (threads s) i) as [t|] eqn:Et; [|discriminate].
  pose proof (th_step_spec i t _ _ (HA i t Et)) as Hs.
  destruct (th_step i t (cfg_owner s) (upd_owner s)) as [[[t' co'] uo']|]; [|discriminate].
  injection H as <-. destruct Hs as (Hinv & Mc & Mu & _).
  split; cbn [threads cfg_owner upd_owner]; intros j; rewrite nth_error_set_nth;
    destruct (Nat.eqb_spec i j) as [<-|Eij].
  - rewrite Et. intros tj [= <-]. exact Hinv.
  - intros tj Hj. destruct (HA j tj Hj) as (K1 & K2 & K3 & K4). unfold th_inv.
    rewrite (moved_other _ _ _ _ Mc Eij), (moved_other _ _ _ _ Mu Eij). auto.
  - rewrite Et. discriminate.
  - intros Hj. apply HB, (moved_other _ _ _ _ Mc Eij), Hj.
Qed.

Theorem reachable_ok order : forall s, sys_ok s -> sys_ok (run_sched s order).
Proof.
  induction order as [|i r IH]; intros s H; cbn [run_sched]; [exact H|].
  destruct (sys_step s i) as [s'|] eqn:E; [|apply IH; exact H].
  apply IH. eapply sys_step_ok; eauto.
Qed.

Lemma holder_not_done t : th_ok t -> depth t = 1%nat -> th_done t = false.
Proof.
  intros Hok Hd. unfold th_ok, th_done in *. destruct (inside t) as [b|]; [reflexivity|].
  destruct (rest t); [|reflexivity]. rewrite Hd in Hok. cbn in Hok. discriminate.
Qed.

Lemma sys_step_enabled s i t :
  sys_ok s -> nth_error (threads s) i = Some t -> th_done t = false ->
  (cfg_owner s = None \/ cfg_owner s = Some i) -> sys_step s i <> None.
Proof.
  intros [HA _] Ht Hd Hfree. unfold sys_step. rewrite Ht.
  pose proof (th_step_spec i t _ _ (HA i t Ht)) as Hs.
  destruct (th_step i t (cfg_owner s) (upd_owner s)) as [[[t' co] uo]|]; [discriminate|].
  destruct Hs as [Hs|[H1 H2]]; [congruence|destruct Hfree; contradiction].
Qed.

Theorem no_deadlock s :
  sys_ok s -> (exists i t, nth_error (threads s) i = Some t /\ th_done t = false) ->
  exists i, sys_step s i <> None.
Proof.
  intros Hok (i & t & Ht & Hnd). destruct (cfg_owner s) as [j|] eqn:Eco.
  - (* the holder of the config mutex can always take its next step *)
    pose proof Hok as [HA HB].
    destruct (nth_error (threads s) j) as [tj|] eqn:Ej; [|elim (HB j Eco Ej)].
    exists j. apply (sys_step_enabled s j tj Hok Ej); [|right; exact Eco].
    destruct (HA j tj Ej) as (Hk & _ & K & _). apply (holder_not_done tj Hk), K, Eco.
  - (* the config mutex is free: any unfinished thread can move *)
    exists i. apply (sys_step_enabled s i t Hok Ht Hnd). left. exact Eco.
Qed.

Lemma work_set_nth l : forall i t t',
  nth_error l i = Some t -> (th_work t' < th_work t)%nat ->
  (fold_right (fun t n => th_work t + n) 0 (set_nth i t' l) < fold_right (fun t n => th_work t + n) 0 l)%nat.
Proof.
  induction l as [|y l IH]; intros i t t' Hn Hw; destruct i as [|i]; cbn in *; try discriminate.
  - inversion Hn; subst. lia.
  - specialize (IH i t t' Hn Hw). lia.
Qed.

Theorem step_consumes_work s i s' :
  sys_ok s -> sys_step s i = Some s' -> (sys_work s' < sys_work s)%nat.
Proof.
  intros [HA _] H. unfold sys_step in H.
  destruct (nth_error (threads s) i) as [t|] eqn:Et; [|discriminate].
  pose proof (th_step_spec i t _ _ (HA i t Et)) as Hs.
  destruct (th_step i t (cfg_owner s) (upd_owner s)) as [[[t' co'] uo']|]; [|discriminate].
  injection H as <-. destruct Hs as (_ & _ & _ & Hw). exact (work_set_nth _ _ _ _ Et Hw).
Qed.

Definition all_done (s : sys) : Prop := forall i t, nth_error (threads s) i = Some t -> th_done t = true.

Lemma all_done_dec s : all_done s \/ exists i t, nth_error (threads s) i = Some t /\ th_done t = false.
Proof.
  destruct (Forall_Exists_dec (fun t => th_done t = true) (fun t => bool_dec _ _) (threads s)) as [F|X].
  - left. intros i t Ht. rewrite Forall_forall in F. exact (F t (nth_error_In _ _ Ht)).
  - right. apply Exists_exists in X. destruct X as (t & Hin & Hf).
    apply In_nth_error in Hin. destruct Hin as [i Hi]. exists i, t. split; [exact Hi|].
    apply not_true_is_false, Hf.
Qed.

Theorem completion_exists : forall n s, sys_ok s -> (sys_work s <= n)%nat ->
  exists order, (List.length order <= n)%nat /\ all_done (run_sched s order).
Proof.
  induction n as [|n IH]; intros s Hok Hw.
  (* unless all are done some thread can step, and the step consumes work: there is none at n = 0 *)
  all: destruct (all_done_dec s) as [Hall|Hsome]; [exists []; split; [cbn; lia|exact Hall]|].
  all: destruct (no_deadlock s Hok Hsome) as [j Hj].
  all: destruct (sys_step s j) as [s'|] eqn:Es; [|contradiction].
  all: pose proof (step_consumes_work s j s' Hok Es).
  - lia.
  - destruct (IH s' (sys_step_ok _ _ _ Hok Es) ltac:(lia)) as (order & Hl & Hd).
    exists (j :: order). split; [cbn; lia|]. cbn [run_sched]. rewrite Es. exact Hd.
Qed.
