(* Within one release the ban list only grows (C02). *)
From UV Require Import Base Model PMLemmas Sections Inv.

Section Ban.
Variable sha : bytes -> bytes.
Variable sigok : string -> string -> string -> bool.
Variable zdec : bytes -> bytes.
Variable base : bytes.

Notation step := (step sha sigok zdec base).
Notation sec_pm := (sec_pm sha sigok).
Notation sec_disk := (sec_disk sha sigok).

Definition BM (r : string) (d d' : disk) : Prop :=
  stable r d' /\ incl (bad (load_p d)) (bad (load_p d')).

Lemma BM_refl r d : stable r d -> BM r d d.
Proof. intros H. split; auto. apply incl_refl. Qed.

Lemma BM_trans r d1 d2 d3 : BM r d1 d2 -> BM r d2 d3 -> BM r d1 d3.
Proof. intros [_ H1] [S H2]. split; auto. eapply incl_tran; eauto. Qed.

Lemma sec_pm_bad key k d s :
  bad (snd (sec_pm key k d s)) =
  match k, cb s with SFail _, Some b => add_bad (m_num b) (bad s) | _, _ => bad s end.
Proof.
  assert (Hn : bad (snd (fst (next_boot sha sigok key d s))) = bad s)
    by (apply (next_boot_pres sha sigok (fun x => bad (snd x) = bad s)); [intros; apply fall_back_bad|reflexivity]).
  destruct k; cbn [Sections.sec_pm]; try reflexivity.
  - (* SNext *) exact Hn.
  - (* SStart *) destruct (next_boot sha sigok key d s) as [[d1 s1] [n|]]; exact Hn.
  - (* SSuccess *) unfold boot_success. destruct (cb s); reflexivity.
  - (* SFail *) destruct (cb s); [apply fall_back_bad|reflexivity].
  - (* SRollback *) apply (rollback_loop_pres sha sigok (fun x => bad (snd x) = bad s)); [|reflexivity].
    intros d1 s1 x _ E. rewrite fall_back_bad. exact E.
  - (* SInstall *) destruct (inb (p_num p) (bad s)); reflexivity.
Qed.

Theorem sec_BM c k d : stable (c_rel c) d -> BM (c_rel c) d (sec_disk c k d).
Proof.
  intros S. split; [apply sec_stable|].
  apply (sec_lift sha sigok (fun _ s => incl (bad (load_p d)) (bad s))); [auto|].
  rewrite sec_pm_bad, (norm_id c d S). destruct k; try apply incl_refl.
  destruct (cb (load_p d)); [|apply incl_refl]. intros n Hn. apply add_bad_In. auto.
Qed.

Lemma sec_bad c k d :
  stable (c_rel c) d -> (forall m, k <> SFail m) -> bad (load_p (sec_disk c k d)) = bad (load_p d).
Proof.
  intros S Hk. apply (sec_lift sha sigok (fun _ s => bad s = bad (load_p d))); [auto|].
  rewrite sec_pm_bad, (norm_id c d S). destruct k; try reflexivity. destruct (Hk m eq_refl).
Qed.

(* state-file damage is excluded (C02: "state files are not damaged from outside") *)
Definition within (r : string) (w : world) (o : op) : Prop :=
  (forall c, w_cfg w = Some c -> c_rel c = r) /\
  match o with
  | OInit relv _ _ => relv = r
  | ODamage (DSetPj _) | ODamage (DSetSj _) => False
  | _ => True
  end.

Lemma cfg_of_rel relv y c : cfg_of relv y = Some c -> c_rel c = relv.
Proof. destruct y; cbn; [discriminate|]. intros H. injection H as <-. reflexivity. Qed.

Lemma actor_rel r w o c : within r w o -> actor w o c -> c_rel c = r.
Proof.
  intros [Hc Ho] Ha. destruct o; cbn in Ha; try contradiction; try (apply Hc, Ha).
  destruct Ha as (_ & _ & E). apply cfg_of_rel in E. congruence.
Qed.

Theorem step_BM r w o :
  within r w o -> stable r (w_disk w) ->
  BM r (w_disk w) (w_disk (fst (fst (step w o)))) /\
  (forall c, w_cfg (fst (fst (step w o))) = Some c -> c_rel c = r).
Proof.
  intros Hw S. split.
  - apply (step_inv sha sigok zdec base (BM r (w_disk w))); [| |apply BM_refl, S].
    + intros g -> H. destruct Hw as [_ Hg]. destruct g; try contradiction; cbn [apply_damage];
        try (destruct (arts _ n)); exact H.
    + intros c k d Ha _ H. rewrite <- (actor_rel r w o c Hw Ha) in *.
      eapply BM_trans; [exact H|]. apply sec_BM, H.
  - intros c. destruct (step_cfg sha sigok zdec base w o) as [-> | [[_ ->] | (c' & Ha & ->)]].
    + apply Hw.
    + discriminate.
    + intros E. injection E as <-. eapply actor_rel; eauto.
Qed.

End Ban.
