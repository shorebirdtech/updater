(* disk_io::write truncates the file and streams the new text into it; death or a failing write leaves a strict prefix,
   which Fault.write_pj takes to be JGarbage.  Here that is a theorem: no strict prefix of a text that reads as a struct,
   starts with '{' and ends with '}' is accepted.  An object sentence ends itself, so the reader run on the whole text
   would stop where it stopped on the prefix, and what follows - white space, the whole text being accepted - ends with '}'. *)
From UV Require Import Base Model Json JsonText JsonTextProofs JsonTextSound JsonState.
From Coq Require Import Lia.
Local Open Scope N_scope.

Lemma object_any_rest fs l w0 b : WS w0 -> GSM fs l b ->
  forall w rest fuel, WS w -> (List.length (123%N :: w0 ++ b) < fuel)%nat ->
    parse_sch fuel (SStruct fs) (w ++ (123 :: w0 ++ b) ++ rest) = Some (JObj l, rest).
Proof.
  (* the members part of schema_reader_complete reads the members whatever follows the closing brace;
     open_seq puts the opening brace in front of them *)
  intros Hw0 Hm. destruct (GSM_head _ _ _ Hm) as (r & ->).
  exact (open_seq (rd := fun f => parse_sch f (SStruct fs)) (loop := fun f => sch_members f fs) (parse_sch_obj fs)
           (or_intror eq_refl) w0 _ _ Hw0 (starts_quote r) (proj1 (proj2 schema_reader_complete) fs l _ Hm)).
Qed.

Lemma struct_object_any_rest fs t z :
  GS (SStruct fs) t (123 :: z) -> reads_any (fun f => parse_sch f (SStruct fs)) t (123 :: z).
Proof.
  intros Hg. inversion Hg as [|? ? ? _ Hno _|? w0 Hw0|? l w0 b Hw0 Hm| |]; subst.
  - (* neither an object nor an array: excluded *) destruct (Hno z eq_refl).
  - (* {} *)
    exact (open_empty (rd := fun f => parse_sch f (SStruct fs)) (loop := fun f => sch_members f fs) (parse_sch_obj fs)
             (or_intror eq_refl) w0 Hw0).
  - (* {members} *) exact (object_any_rest fs l w0 b Hw0 Hm).
Qed.

Lemma skip_ws_prefix p r c x : skip_ws (p ++ r) = c :: x -> is_ws c = false ->
  (exists x', skip_ws p = c :: x') \/ WS p.
Proof.
  induction p as [|a p IH]; intros H Hc.
  - right. constructor.
  - cbn [app skip_ws] in *. destruct (is_ws a) eqn:Ea.
    + destruct (IH H Hc) as [(x' & E)|Hw]; [left; eauto|right; constructor; assumption].
    + injection H as -> _. left. eauto.
Qed.

Theorem torn_object_is_unreadable fs (P p r : bytes) T :
  P = p ++ r -> r <> [] ->
  parse_body (SStruct fs) P = Some T ->
  (exists x, skip_ws P = 123 :: x) -> (exists y, P = y ++ [125]) ->
  parse_body (SStruct fs) p = None.
Proof.
  intros -> Hr HP (x & Hstart) (y & Hend).
  destruct (parse_body (SStruct fs) p) as [t'|] eqn:Ep; [exfalso|reflexivity].
  (* the prefix would be: white space, a sentence, white space *)
  apply parse_body_iff in Ep. destruct Ep as (w & b & w' & Hw & Hg & Hw' & ->).
  rewrite <- !app_assoc in HP, Hstart, Hend.
  (* its first non-blank byte is the '{' of P, so the sentence is an object; and the reader, run on P, stops right
     after that sentence *)
  assert (Hrun : parse_sch (fuel_for (w ++ b ++ w' ++ r)) (SStruct fs) (w ++ b ++ w' ++ r) = Some (t', w' ++ r)).
  { destruct (GS_head _ _ _ Hg) as (c & z & -> & Hc). apply vstart_nonws in Hc.
    cbn [app] in Hstart. rewrite (skip_ws_app w (c :: _) Hw Hc) in Hstart. injection Hstart as -> _.
    apply (struct_object_any_rest fs t' z Hg w (w' ++ r) _ Hw). unfold fuel_for. rewrite !app_length. lia. }
  (* but P is read completely: what is left after the value is white space only *)
  unfold parse_body in HP. rewrite Hrun in HP.
  destruct (skip_ws (w' ++ r)) eqn:Es; [|discriminate].
  apply skip_ws_nil, Forall_app in Es. destruct Es as [_ Hrw].
  (* ... while P, and so r, ends with '}' *)
  destruct (exists_last Hr) as (y' & c & ->).
  rewrite !app_assoc in Hend. apply app_inj_tail in Hend. destruct Hend as [_ ->].
  apply Forall_app in Hrw. destruct Hrw as [_ Hc]. inversion Hc as [|? ? H _]. discriminate H.
Qed.

Lemma body_reader_torn {A} fs (f : json -> option A) (P p r : bytes) a :
  body_reader (SStruct fs) f P = Some a -> P = p ++ r -> r <> [] ->
  (exists x, skip_ws P = 123 :: x) -> (exists y, P = y ++ [125]) ->
  body_reader (SStruct fs) f p = None.
Proof.
  unfold body_reader. intros HP EP Hr Hs He. destruct (parse_body (SStruct fs) P) as [T|] eqn:E; [|discriminate].
  rewrite (torn_object_is_unreadable fs P p r T EP Hr E Hs He). reflexivity.
Qed.

(* '{' ... '}' is what serde_json::to_writer_pretty produces *)
Theorem torn_state_file_is_garbage (P p r : bytes) s :
  pstate_of_body P = Some s -> P = p ++ r -> r <> [] ->
  (exists x, skip_ws P = 123 :: x) -> (exists y, P = y ++ [125]) ->
  pj_of_file p = JGarbage.
Proof.
  intros HP EP Hr Hs He. unfold pj_of_file.
  rewrite (body_reader_torn _ pstate_of_json P p r s HP EP Hr Hs He : pstate_of_body p = None). reflexivity.
Qed.

