(* No slice index of the scan loop is out of range and no usize subtraction underflows: an instrumented twin of
   Bsdiff.outer checks the side condition wherever the Rust code indexes obuf / nbuf without a guard or subtracts two
   usize values, and under the matcher's bound every check succeeds.  (Guarded accesses `oi < obuflen && obuf[oi] == ..`
   need no condition on oi; the cast `(scsc as isize + lastoffset) as usize` wraps, it does not panic.) *)
From UV Require Import Base Bsdiff BsdiffProofs.

Section S.
Variable old new : bytes.
Variable lsm : N -> N * N.
Notation olen := (olen old).
Notation nlen := (nlen new).

(* side conditions of the block that builds a Match (bidiff lib.rs:196-283), with the same intermediate values *)
Definition emit_ok (st : bs) (sc ps : N) : bool :=
  let lenf0 := Z.to_N (lenf_loop old new (N.to_nat (N.min (sc - lastscan st) (olen - lastpos st)))
                                 0 0 0 0 (lastpos st) (lastscan st)) in
  let lenb0 := if nlen <=? sc then 0
               else Z.to_N (lenb_loop old new (N.to_nat (N.min (sc - lastscan st) ps)) 1 0 0 0 ps sc) in
  (* `self.scan - self.lastscan`, `obuflen - self.lastpos` *)
  (lastscan st <=? sc) && (lastpos st <=? olen) &&
  (* forward loop: obuf[lastpos+i], nbuf[lastscan+i] for i < min(..) *)
  (lastpos st + N.min (sc - lastscan st) (olen - lastpos st) <=? olen) &&
  (lastscan st + N.min (sc - lastscan st) (olen - lastpos st) <=? nlen) &&
  (* backward loop (only if scan < nbuflen): obuf[pos-i], nbuf[scan-i] for 1 <= i <= min(..) *)
  ((nlen <=? sc) || ((N.min (sc - lastscan st) ps <=? ps) && (N.min (sc - lastscan st) ps <=? sc) &&
                     (ps <=? olen) && (sc <=? nlen))) &&
  (* `self.scan - lenb`, `self.pos - lenb` *)
  (lenb0 <=? sc) && (lenb0 <=? ps) &&
  (if sc - lenb0 <? lastscan st + lenf0 then
     let overlap := (lastscan st + lenf0) - (sc - lenb0) in
     let lens := lens_loop old new (N.to_nat overlap) 0 0 0 0
                           (lastscan st + lenf0 - overlap) (lastpos st + lenf0 - overlap)
                           (sc - lenb0) (ps - lenb0) in
     (* the four index expressions of the overlap loop, i < overlap *)
     (overlap <=? lastscan st + lenf0) && (overlap <=? lastpos st + lenf0) &&
     (lastscan st + lenf0 <=? nlen) && (lastpos st + lenf0 <=? olen) &&
     (sc - lenb0 + overlap <=? nlen) && (ps - lenb0 + overlap <=? olen) &&
     (* `lenf += lens; lenf -= overlap; lenb -= lens` *)
     (overlap <=? lenf0 + lens) && (lens <=? lenb0)
   else true).

(* the twin of [inner]: `&self.nbuf[self.scan..]`, nbuf[scsc] for scsc < scan+length, nbuf[scan] *)
Fixpoint inner_ok (fuel : nat) (sc scsc ps ln : N) (off : Z) (score : N) : bool :=
  match fuel with
  | O => true
  | S f =>
      if sc <? nlen then
        let '(p, l) := lsm sc in
        let upto := sc + l in
        let score1 := count old new (N.to_nat (upto - scsc)) scsc off score in
        (sc <=? nlen) && (upto <=? nlen) &&
        (if ((l =? score1) && negb (l =? 0)) || (score1 + 8 <? l) then true
         else if same old new (Z.of_N sc + off) sc
              then if score1 =? 0 then true else inner_ok f (sc + 1) (N.max scsc upto) p l off (score1 - 1)
              else inner_ok f (sc + 1) (N.max scsc upto) p l off score1)
      else true
  end.

Fixpoint outer_ok (fuel : nat) (st : bs) : bool :=
  match fuel with
  | O => true
  | S f =>
      if scan st <? nlen then
        let sc0 := scan st + len st in
        inner_ok (S (N.to_nat (nlen - sc0))) sc0 sc0 (pos st) (len st) (lastoff st) 0 &&
        match inner old new lsm (S (N.to_nat (nlen - sc0))) sc0 sc0 (pos st) (len st) (lastoff st) 0 with
        | Ok (sc, ps, ln, score) =>
            if negb (ln =? score) || (sc =? nlen) then
              emit_ok st sc ps && outer_ok f (snd (emit old new st sc ps ln))
            else outer_ok f {| scan := sc; pos := ps; len := ln; lastscan := lastscan st;
                               lastpos := lastpos st; lastoff := lastoff st |}
        | _ => true
        end
      else true
  end.

Hypothesis Hlsm : lsm_bounded old new lsm.

Lemma inner_ok_true fuel : forall sc scsc ps ln off score,
  sc <= nlen -> inner_ok fuel sc scsc ps ln off score = true.
Proof.
  induction fuel as [|f IH]; intros sc scsc ps ln off score Hsc; cbn [inner_ok]; [reflexivity|].
  destruct (sc <? nlen) eqn:E; [|reflexivity].
  destruct (lsm sc) as [p l] eqn:El.
  pose proof (Hlsm sc ltac:(lia)) as Hb. rewrite El in Hb. cbn [fst snd] in Hb.
  apply andb_true_intro. split; [lia|].
  destruct (_ || _); [reflexivity|].
  destruct (same _ _ _ _); [destruct (_ =? 0); [reflexivity|]|]; apply IH; lia.
Qed.

Lemma emit_ok_true st sc ps :
  lastscan st <= sc <= nlen -> lastpos st <= olen -> ps <= olen -> emit_ok st sc ps = true.
Proof.
  intros Hsc Hlp Hps. unfold emit_ok.
  fold (lenf0 old new st sc) (lenb0 old new st sc ps) (overlap old new st sc ps) (lens old new st sc ps).
  pose proof (cut_bounds old new st sc ps ltac:(lia) Hlp) as B. unfold overlap in *. revert B.
  generalize (lens old new st sc ps) (lenf0 old new st sc) (lenb0 old new st sc ps). intros ls lf lb B.
  repeat (apply andb_true_intro; split); [lia..|].
  destruct (_ <? _) eqn:Eov; [|reflexivity]. repeat (apply andb_true_intro; split); lia.
Qed.

Lemma outer_ok_true fuel : forall st, Scan old new st -> outer_ok fuel st = true.
Proof.
  induction fuel as [|f IH]; intros st HI; cbn [outer_ok]; [reflexivity|].
  destruct (scan st <? nlen) eqn:E; [|reflexivity].
  rewrite inner_ok_true by (unfold Scan in HI; lia). cbn [andb].
  destruct (inner old new lsm _ _ _ _ _ _ _) as [[[[sc ps] ln] score]| |] eqn:Ein; try reflexivity.
  destruct (outer_step old new lsm Hlsm _ _ _ _ _ HI ltac:(lia) Ein) as (Hb & Hc & He).
  destruct (negb _ || _) eqn:Eem.
  - rewrite emit_ok_true by (unfold Scan in HI; lia). apply IH.
    destruct (emit old new st sc ps ln). apply He.
  - apply IH, Hc. lia.
Qed.

Theorem bsdiff_index_safe : outer_ok (S (S (N.to_nat nlen))) bs0 = true.
Proof. apply outer_ok_true. apply Scan_bs0. Qed.

End S.
