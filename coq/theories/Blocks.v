(* Calls as programs of critical sections ("blocks"), interleaving semantics, and the
   theorems that hold for EVERY interleaving (C11), plus lock/network action traces (C12). *)
From UV Require Import Base Model PMLemmas Sections Inv Ban Handout Frame Frames2.

Section Blocks.
Variable sha : bytes -> bytes.
Variable sigok : string -> string -> string -> bool.
Variable zdec : bytes -> bytes.
Variable base : bytes.

Notation cs_next := (cs_next sha sigok).
Notation cs_start := (cs_start sha sigok).
Notation cs_failure := (cs_failure sha sigok).
Notation cs_rollback := (cs_rollback sha sigok).
Notation do_check := (do_check sha sigok).
Notation do_update := (do_update sha sigok zdec base).
Notation inflate := (inflate zdec base).
Notation hash_ok := (hash_ok sha).

Inductive action :=
| AcqCfg | RelCfg        (* the config mutex, which also guards all on-disk state *)
| TryUpd (ok : bool) | RelUpd
| Net (what : netobs)    (* a network callback is entered *)
| Spawn.                 (* a helper thread is started (event report) *)

(* stages of the two multi-block calls: UTry is "about to try the update mutex", every other
   constructor "about to acquire the config mutex" *)
Inductive ustage :=
| UTry | UCfg | UCopy | UClear (evs : list event)
| URb (rs : resp) (l : list N) | UBad (rs : resp) (p : patch) | UNxt (rs : resp) (p : patch)
| UIns (p : patch) (out : bytes).
Inductive cstage :=
| CCfg | CRb (rs : resp) (l : list N) | CBad (p : patch) | CNxt (p : patch).

Inductive stage :=
| GDone (x : out)
| GOne (o : op)                                  (* single-block calls *)
| GUpd (ch : option string) (r : option resp) (dl : option bytes) (log : list netobs) (u : ustage)
| GChk (ch : option string) (r : option resp) (c : cstage).

Definition stage_of (o : op) : stage :=
  match o with
  | OUpdate ch r dl => GUpd ch r dl [] UTry
  | OCheck ch r => GChk ch r CCfg
  | _ => GOne o
  end.

Definition after_rb_u (ch : option string) (r : option resp) (dl : option bytes) (log : list netobs)
           (rs : resp) : stage :=
  if negb (r_avail rs) then GDone (RStatus (status_code UNoUpdate))
  else match r_patch rs with
       | None => GDone (RStatus (status_code UError))
       | Some p => GUpd ch r dl log (UBad rs p)
       end.

Definition after_rb_c (ch : option string) (r : option resp) (rs : resp) : stage :=
  match r_patch rs with
  | None => GDone (RBool false)
  | Some p => GChk ch r (CBad p)
  end.

(* one block: everything a thread does between acquiring the config mutex and the next acquisition
   (network calls happen after the release, before the next stage) *)
Definition block (c : cfg) (g : stage) (d : disk) : stage * disk * list netobs :=
  match g with
  | GDone x => (GDone x, d, [])
  | GOne o =>
      match o with
      | ONextNum => let '(d', r) := cs_next c d in
                    (GDone (RNum (match r with Some n => n | None => 0 end)), d', [])
      | ONextPath => let '(d', r) := cs_next c d in (GDone (RPath r), d', [])
      | OCurNum => let '(d', r) := cs_current c d in
                   (GDone (RNum (match r with Some n => n | None => 0 end)), d', [])
      | OStart => (GDone RUnit, cs_start c d, [])
      | OSuccess => let '(d', l) := cs_success c d in (GDone RUnit, d', l)
      | OFailure => let '(d', _) := cs_failure c d in (GDone RUnit, d', [])
      | OAuto => (GDone (RBool (c_auto c)), d, [])
      | OInit _ _ _ => (GDone (RBool false), d, [])
      | _ => (GDone RUnit, d, [])
      end
  | GUpd ch r dl log u =>
      match u with
      | UTry => (GUpd ch r dl log UCfg, d, [])       (* update mutex taken; no shared state touched *)
      | UCfg => (GUpd ch r dl log UCopy, d, [])
      | UCopy => let '(d', evs) := cs_copy_events c d in
                 (GUpd ch r dl log (UClear evs), d', map NEvent evs)   (* queued events go out now *)
      | UClear evs =>
          let d' := cs_clear_events c d in
          let out := [NCheck (mk_request c ch)] in
          (match r with
           | None => GDone (RStatus (status_code UError))
           | Some rs => match r_rb rs with
                        | Some l => GUpd ch r dl log (URb rs l)
                        | None => after_rb_u ch r dl log rs
                        end
           end, d', out)
      | URb rs l => (after_rb_u ch r dl log rs, cs_rollback c d l, [])
      | UBad rs p =>
          let '(d', b) := cs_is_bad c d (p_num p) in
          (if b then GDone (RStatus (status_code UBadPatch)) else GUpd ch r dl log (UNxt rs p), d', [])
      | UNxt rs p =>
          let '(d', k) := cs_next c d in
          let already := match k with Some n => N.eqb n (p_num p) | None => false end in
          if already then (GDone (RStatus (status_code UNoUpdate)), d', [])
          else
            (match dl with
             | None => GDone (RStatus (status_code UError))
             | Some bdl =>
                 match inflate bdl with
                 | None => GDone (RStatus (status_code UError))
                 | Some out => if hash_ok out (p_hash p) then GUpd ch r dl log (UIns p out)
                               else GDone (RStatus (status_code UError))
                 end
             end, d', [NDownload (p_url p)])
      | UIns p out =>
          let '(d', st) := cs_install c d p out in
          (GDone (RStatus (status_code st)), d',
           match st with UInstalled => [NEvent (mk_event c EvDownload (p_num p) MsgNone)] | _ => [] end)
      end
  | GChk ch r cs =>
      match cs with
      | CCfg =>
          (match r with
           | None => GDone (RBool false)
           | Some rs => match r_rb rs with
                        | Some l => GChk ch r (CRb rs l)
                        | None => after_rb_c ch r rs
                        end
           end, d, [NCheck (mk_request c ch)])
      | CRb rs l => (after_rb_c ch r rs, cs_rollback c d l, [])
      | CBad p =>
          let '(d', b) := cs_is_bad c d (p_num p) in
          (if b then GDone (RBool false) else GChk ch r (CNxt p), d', [])
      | CNxt p =>
          let '(d', k) := cs_next c d in
          (GDone (RBool (match k with Some n => negb (N.eqb n (p_num p)) | None => true end)), d', [])
      end
  end.

Fixpoint run_stage (fuel : nat) (c : cfg) (g : stage) (d : disk) (log : list netobs)
  : stage * disk * list netobs :=
  match fuel with
  | O => (g, d, log)
  | S f => match g with
           | GDone _ => (g, d, log)
           | _ => let '(g', d', l) := block c g d in run_stage f c g' d' (log ++ l)
           end
  end.

(* The refinement lemmas hold for any fuel above what the remaining blocks need: a finished call
   ignores the fuel that is left. *)
Lemma run_stage_done f c x d log : run_stage f c (GDone x) d log = (GDone x, d, log).
Proof. destruct f; reflexivity. Qed.

Lemma run_stage_S f c g d log :
  run_stage (S f) c g d log =
  match g with
  | GDone _ => (g, d, log)
  | _ => let '(g', d', l) := block c g d in run_stage f c g' d' (log ++ l)
  end.
Proof. reflexivity. Qed.

(* closes a case of the refinement lemmas: the remaining stages run to GDone and the two logs are the same
   list up to association *)
Ltac fin := cbn [run_stage block app fst snd negb Nat.add];
            rewrite ?run_stage_done, ?app_nil_r, <- ?app_assoc; reflexivity.

Definition conv (x : disk * ustatus * list netobs) : stage * disk * list netobs :=
  let '(d, st, log) := x in (GDone (RStatus (status_code st)), d, log).

(* the part of do_update after the selection check said "ok to install" *)
Definition upd_tail (c : cfg) (dl : option bytes) (p : patch) (d3 : disk) (log : list netobs)
  : disk * ustatus * list netobs :=
  match dl with
  | None => (d3, UError, log)
  | Some bytes_dl =>
      match inflate bytes_dl with
      | None => (d3, UError, log)
      | Some out =>
          if hash_ok out (p_hash p)
          then let '(d4, st) := cs_install c d3 p out in
               (d4, st, match st with
                        | UInstalled => log ++ [NEvent (mk_event c EvDownload (p_num p) MsgNone)]
                        | _ => log
                        end)
          else (d3, UError, log)
      end
  end.

Lemma tail_refine f c ch r dl p d2 (log : list netobs) :
  run_stage (2 + f) c
    (match dl with
     | None => GDone (RStatus (status_code UError))
     | Some bdl => match inflate bdl with
                   | None => GDone (RStatus (status_code UError))
                   | Some out => if hash_ok out (p_hash p) then GUpd ch r dl [] (UIns p out)
                                 else GDone (RStatus (status_code UError))
                   end
     end) d2 log =
  conv (upd_tail c dl p d2 log).
Proof.
  unfold upd_tail, conv. destruct dl as [bdl|]; [|fin].
  destruct (inflate bdl) as [out|]; [|fin].
  destruct (hash_ok out (p_hash p)); [|fin].
  cbn [run_stage block Nat.add]. destruct (cs_install c d2 p out) as [d4 st]. destruct st; fin.
Qed.

Definition upd_from_bad (c : cfg) (dl : option bytes) (p : patch) (d2 : disk) (log : list netobs)
  : disk * ustatus * list netobs :=
  let '(d3, sh) := should_install sha sigok c d2 (p_num p) in
  match sh with
  | ShBad => (d3, UBadPatch, log)
  | ShAlready => (d3, UNoUpdate, log)
  | ShOk => upd_tail c dl p d3 (log ++ [NDownload (p_url p)])
  end.

Lemma bad_refine f c ch r dl rs p d2 log0 :
  run_stage (4 + f) c (GUpd ch r dl [] (UBad rs p)) d2 log0 = conv (upd_from_bad c dl p d2 log0).
Proof.
  unfold upd_from_bad, Model.should_install. cbn [run_stage block Nat.add].
  destruct (cs_is_bad c d2 (p_num p)) as [d1 b]. destruct b; [unfold conv; fin|].
  cbn [run_stage block]. destruct (cs_next c d1) as [d3 k].
  destruct k as [n|]; [destruct (N.eqb n (p_num p)); [unfold conv; fin|]|];
    rewrite app_nil_r; apply (tail_refine f).
Qed.

Definition upd_after_rb (c : cfg) (dl : option bytes) (rs : resp) (d2 : disk) (log : list netobs)
  : disk * ustatus * list netobs :=
  if negb (r_avail rs) then (d2, UNoUpdate, log)
  else match r_patch rs with
       | None => (d2, UError, log)
       | Some p => upd_from_bad c dl p d2 log
       end.

Lemma after_rb_refine f c ch r dl rs d2 log0 :
  run_stage (4 + f) c (after_rb_u ch r dl [] rs) d2 log0 = conv (upd_after_rb c dl rs d2 log0).
Proof.
  unfold after_rb_u, upd_after_rb. destruct (negb (r_avail rs)); [unfold conv; fin|].
  destruct (r_patch rs) as [p|]; [|unfold conv; fin]. apply bad_refine.
Qed.

Lemma do_update_unfold c d ch r dl :
  do_update c d ch r dl =
  let '(d0, evs) := cs_copy_events c d in
  let d1 := cs_clear_events c d0 in
  let log := map NEvent evs ++ [NCheck (mk_request c ch)] in
  match r with
  | None => (d1, UError, log)
  | Some rs => upd_after_rb c dl rs
                 (match r_rb rs with Some l => cs_rollback c d1 l | None => d1 end) log
  end.
Proof.
  unfold Model.do_update, upd_after_rb, upd_from_bad, upd_tail.
  destruct (cs_copy_events c d) as [d0 evs]. destruct r as [rs|]; [|reflexivity].
  destruct (negb (r_avail rs)); [reflexivity|].
  destruct (r_patch rs) as [p|]; [|reflexivity].
  destruct (should_install sha sigok c _ (p_num p)) as [d3 sh]. destruct sh; reflexivity.
Qed.

Lemma update_blocks_refine c d ch r dl :
  run_stage 9 c (GUpd ch r dl [] UTry) d [] = conv (do_update c d ch r dl).
Proof.
  rewrite do_update_unfold. do 3 (rewrite run_stage_S; cbn [block app]).
  destruct (cs_copy_events c d) as [d0 evs]. rewrite run_stage_S. cbn [block app].
  destruct r as [rs|]; [|unfold conv; fin].
  destruct (r_rb rs) as [l|].
  - rewrite run_stage_S. cbn [block app]. rewrite app_nil_r. apply (after_rb_refine 0).
  - apply (after_rb_refine 1).
Qed.

Definition conv_c (x : disk * bool * list netobs) : stage * disk * list netobs :=
  let '(d, b, log) := x in (GDone (RBool b), d, log).

Lemma check_blocks_refine c d ch r :
  run_stage 5 c (GChk ch r CCfg) d [] = conv_c (do_check c d ch r).
Proof.
  unfold Model.do_check. rewrite run_stage_S. cbn [block app].
  destruct r as [rs|]; [|unfold conv_c; fin].
  (* after the rollbacks: the ban query and the selection query are should_install *)
  assert (Tail : forall f dd log,
            run_stage (2 + f) c (after_rb_c ch (Some rs) rs) dd log =
            conv_c match r_patch rs with
                   | Some p => let '(d2, sh) := should_install sha sigok c dd (p_num p) in
                               (d2, match sh with ShOk => true | _ => false end, log)
                   | None => (dd, false, log)
                   end).
  { intros f dd log. unfold after_rb_c, conv_c, Model.should_install. destruct (r_patch rs) as [p|]; [|fin].
    cbn [run_stage block Nat.add app].
    destruct (cs_is_bad c dd (p_num p)) as [d1 b]. destruct b; [fin|].
    cbn [run_stage block]. destruct (cs_next c d1) as [d2 k].
    destruct k as [n|]; [destruct (N.eqb n (p_num p))|]; fin. }
  destruct (r_rb rs) as [l|].
  - rewrite run_stage_S. cbn [block app]. apply (Tail 1%nat).
  - apply (Tail 2%nat).
Qed.

Record thread := { t_stage : stage; t_todo : list op; t_outs : list out }.
Definition mk_thread (ops : list op) : thread :=
  match ops with
  | [] => {| t_stage := GDone RUnit; t_todo := []; t_outs := [] |}
  | o :: rest => {| t_stage := stage_of o; t_todo := rest; t_outs := [] |}
  end.

Definition thread_done (t : thread) : bool :=
  match t_stage t, t_todo t with GDone _, [] => true | _, _ => false end.

(* thread t takes the config mutex once *)
Definition thread_step (c : cfg) (t : thread) (d : disk) : thread * disk * list netobs :=
  let '(g, d', l) := block c (t_stage t) d in
  match g with
  | GDone x =>
      match t_todo t with
      | [] => ({| t_stage := GDone x; t_todo := []; t_outs := t_outs t ++ [x] |}, d', l)
      | o :: rest => ({| t_stage := stage_of o; t_todo := rest; t_outs := t_outs t ++ [x] |}, d', l)
      end
  | _ => ({| t_stage := g; t_todo := t_todo t; t_outs := t_outs t |}, d', l)
  end.

Fixpoint set_nth {A} (n : nat) (x : A) (l : list A) : list A :=
  match l, n with
  | [], _ => []
  | _ :: r, O => x :: r
  | y :: r, S n' => y :: set_nth n' x r
  end.

(* the update mutex: try_lock at the first stage of an update; held until the update call ends *)
Definition is_try (g : stage) : bool :=
  match g with GUpd _ _ _ _ UTry => true | _ => false end.
Definition in_update (g : stage) : bool :=
  match g with GUpd _ _ _ _ UTry => false | GUpd _ _ _ _ _ => true | _ => false end.

(* an update that finds the mutex taken returns at once: no block, no disk access, no network *)
Definition refuse_update (t : thread) : thread :=
  let x := RStatus (-1) in
  match t_todo t with
  | [] => {| t_stage := GDone x; t_todo := []; t_outs := t_outs t ++ [x] |}
  | o :: rest => {| t_stage := stage_of o; t_todo := rest; t_outs := t_outs t ++ [x] |}
  end.

Definition thread_step_b (c : cfg) (i : nat) (t : thread) (d : disk) (busy : option nat)
  : thread * disk * list netobs * option nat :=
  if is_try (t_stage t) then
    match busy with
    | Some _ => (refuse_update t, d, [], busy)
    | None => let '(t', d', l) := thread_step c t d in (t', d', l, Some i)
    end
  else
    let '(t', d', l) := thread_step c t d in
    (t', d', l, if in_update (t_stage t) && negb (in_update (t_stage t')) then None else busy).

(* a schedule is the list of thread indices in the order they win the next lock they ask for *)
Fixpoint sched (c : cfg) (ts : list thread) (d : disk) (busy : option nat) (order : list nat)
         (log : list netobs) : list thread * disk * list netobs :=
  match order with
  | [] => (ts, d, log)
  | i :: rest =>
      match nth_error ts i with
      | None => sched c ts d busy rest log
      | Some t =>
          if thread_done t then sched c ts d busy rest log
          else let '(t', d', l, busy') := thread_step_b c i t d busy in
               sched c (set_nth i t' ts) d' busy' rest (log ++ l)
      end
  end.

Definition stage_sec (g : stage) : option section :=
  match g with
  | GDone _ => None
  | GOne (OInit _ _ _) => None
  | GOne o => op_sec o
  | GUpd _ _ _ _ u =>
      match u with
      | UTry | UCfg => None
      | UCopy | UBad _ _ => Some SRead
      | UClear _ => Some SClear
      | URb _ l => Some (SRollback l)
      | UNxt _ _ => Some SNext
      | UIns p out => Some (SInstall p out)
      end
  | GChk _ _ cs =>
      match cs with
      | CCfg => None
      | CRb _ l => Some (SRollback l)
      | CBad _ => Some SRead
      | CNxt _ => Some SNext
      end
  end.

Lemma block_disk c g d :
  snd (fst (block c g d)) = match stage_sec g with Some k => sec_disk sha sigok c k d | None => d end.
Proof.
  destruct g as [x|o|ch r dl log u|ch r cs]; [|destruct o|destruct u|destruct cs];
    cbn [block stage_sec op_sec Sections.sec_disk]; try reflexivity;
    try (unfold cs_current, cs_copy_events, cs_is_bad; reflexivity);
    try rewrite <- cs_failure_disk;
    repeat match goal with |- context [let '(_, _) := ?x in _] => destruct x end;
    try match goal with |- context [if ?b then _ else _] => destruct b end; reflexivity.
Qed.

Fixpoint sched_all (P : stage -> disk -> Prop) (c : cfg) (ts : list thread) (d : disk)
         (busy : option nat) (order : list nat) : Prop :=
  match order with
  | [] => True
  | i :: rest =>
      match nth_error ts i with
      | None => sched_all P c ts d busy rest
      | Some t =>
          if thread_done t then sched_all P c ts d busy rest
          else P (t_stage t) d /\
               let '(t', d', _, busy') := thread_step_b c i t d busy in
               sched_all P c (set_nth i t' ts) d' busy' rest
      end
  end.

Lemma thread_step_disk c t d : snd (fst (thread_step c t d)) = snd (fst (block c (t_stage t) d)).
Proof.
  unfold thread_step. destruct (block c (t_stage t) d) as [[g d'] l]. cbn.
  destruct g; auto. destruct (t_todo t); auto.
Qed.

Lemma thread_step_b_disk c i t d busy :
  snd (fst (fst (thread_step_b c i t d busy))) = d \/
  snd (fst (fst (thread_step_b c i t d busy))) = snd (fst (block c (t_stage t) d)).
Proof.
  rewrite <- thread_step_disk. unfold thread_step_b. destruct (is_try (t_stage t)).
  - destruct busy; [left; reflexivity|]. right. destruct (thread_step c t d) as [[? ?] ?]. reflexivity.
  - right. destruct (thread_step c t d) as [[? ?] ?]. reflexivity.
Qed.

Theorem sched_inv (P : disk -> Prop) (Q : stage -> disk -> Prop) c :
  (forall g k d, stage_sec g = Some k -> Q g d -> P d -> P (sec_disk sha sigok c k d)) ->
  forall order ts d busy log,
    sched_all Q c ts d busy order -> P d -> P (snd (fst (sched c ts d busy order log))).
Proof.
  intros Hk. induction order as [|i rest IH]; intros ts d busy log HA H; cbn [sched sched_all] in *; auto.
  destruct (nth_error ts i) as [t|]; [|apply IH; auto].
  destruct (thread_done t); [apply IH; auto|]. destruct HA as [Hq HA].
  assert (H1 : P (snd (fst (block c (t_stage t) d)))).
  { rewrite block_disk. destruct (stage_sec (t_stage t)) as [k|] eqn:E; [|exact H]. eapply Hk; eauto. }
  destruct (thread_step_b_disk c i t d busy) as [E|E];
    destruct (thread_step_b c i t d busy) as [[[t' d'] l] busy']; cbn in E; subst d'; apply IH; auto.
Qed.

Lemma sched_all_any c order : forall ts d busy, sched_all (fun _ _ => True) c ts d busy order.
Proof.
  induction order as [|i rest IH]; intros ts d busy; cbn [sched_all]; auto.
  destruct (nth_error ts i) as [t|]; auto. destruct (thread_done t); auto. split; auto.
  destruct (thread_step_b c i t d busy) as [[[t' d'] l] busy']. apply IH.
Qed.

Lemma block_query_intact c o d d' x l n :
  block c (GOne o) d = (GDone x, d', l) -> reports o x n -> intact sha sigok (c_key c) d' n.
Proof.
  intros Hb [(-> & -> & Hn) | (-> & ->)]; cbn [block] in Hb;
    destruct (cs_next c d) as [d1 r] eqn:E; injection Hb as Hr <- _;
    apply (cs_next_intact sha sigok c d); rewrite E; f_equal.
  - destruct r; congruence.
  - congruence.
Qed.

(* the ban list is looked at again inside the install block *)
Lemma install_block_respects_ban c ch r dl log p out d :
  In (p_num p) (bad (load_p (norm c d))) ->
  block c (GUpd ch r dl log (UIns p out)) d = (GDone (RStatus 3), norm c d, []).
Proof.
  intros H. cbn [block]. unfold Model.cs_install. apply inb_In in H. rewrite H. reflexivity.
Qed.

Definition Safe (r : string) (d : disk) : Prop := stable r d /\ IbanD d.

(* C11: for EVERY schedule of EVERY set of threads running ANY calls: the disk stays a state of
   the release and I-ban holds ... *)
Theorem any_schedule_safe c order : forall ts d busy log,
  Safe (c_rel c) d -> Safe (c_rel c) (snd (fst (sched c ts d busy order log))).
Proof.
  intros ts d busy log. apply (sched_inv (Safe (c_rel c)) (fun _ _ => True)); [|apply sched_all_any].
  intros g k x _ _ [S I]. split; [apply sec_stable|apply sec_IbanD, I].
Qed.

(* ... and a number that is banned stays banned and unselected *)
Theorem any_schedule_keeps_ban c n order : forall ts d busy log,
  Safe (c_rel c) d -> In n (bad (load_p d)) ->
  let d' := snd (fst (sched c ts d busy order log)) in
  In n (bad (load_p d')) /\ numeq (nb (load_p d')) n = false.
Proof.
  intros ts d busy log H Hn.
  destruct (any_schedule_safe c order ts d busy log H) as [_ I].
  assert (M : BM (c_rel c) d (snd (fst (sched c ts d busy order log)))).
  { apply (sched_inv (BM (c_rel c) d) (fun _ _ => True) c); [|apply sched_all_any|apply BM_refl, H].
    intros g k x _ _ B. eapply BM_trans; [exact B|]. apply sec_BM, B. }
  pose proof (proj2 M n Hn) as B. split; [exact B|]. apply (I n B).
Qed.

(* C12: a second update requested while one is running returns at once with an error: it takes no
   lock, touches no state, performs no network I/O *)
Theorem second_update_refused c i t d j :
  is_try (t_stage t) = true ->
  thread_step_b c i t d (Some j) = (refuse_update t, d, [], Some j) /\
  exists rest, t_outs (refuse_update t) = t_outs t ++ [RStatus (-1)] /\ rest = t_todo t.
Proof.
  intros H. unfold thread_step_b. rewrite H. split; [reflexivity|].
  exists (t_todo t). split; [|reflexivity]. unfold refuse_update. destruct (t_todo t); reflexivity.
Qed.

Notation SelD := (SelD sha sigok).

Definition block_ok_lb (m : meta) (g : stage) (d : disk) : Prop :=
  match g with
  | GOne OSuccess => forall b, cb (load_p d) = Some b -> m_num b = m_num m
  | GOne OFailure => forall b, cb (load_p d) = Some b -> m_num b <> m_num m
  | GUpd _ _ _ _ (URb _ l) => ~ In (m_num m) l
  | GChk _ _ (CRb _ l) => ~ In (m_num m) l
  | GUpd _ _ _ _ (UIns p out) => m_num m <> p_num p /\ consistent (load_p d) (new_meta p out)
  | _ => True
  end.

Lemma block_ok_spares m g k d :
  stage_sec g = Some k -> block_ok_lb m g d -> sec_spares SLB m k (load_p d).
Proof.
  intros E H. destruct g as [x|o|ch r dl log u|ch r cs]; [|destruct o|destruct u|destruct cs];
    try discriminate E; injection E as <-; cbn in *; auto; try discriminate;
    try intros _; (split; [discriminate|exact H]).
Qed.

Theorem any_schedule_keeps_last_good c m order : forall ts d busy log,
  stable (c_rel c) d -> SelD SLB (c_key c) d m ->
  sched_all (block_ok_lb m) c ts d busy order ->
  SelD SLB (c_key c) (snd (fst (sched c ts d busy order log))) m.
Proof.
  intros ts d busy log S H HA.
  apply (sched_inv (fun x => stable (c_rel c) x /\ SelD SLB (c_key c) x m) (block_ok_lb m) c) with (2 := HA);
    [|auto].
  intros g k x E Hq [Sx Hx]. split; [apply sec_stable|]. apply sec_SelD; auto. eapply block_ok_spares; eauto.
Qed.

(* events reported by the calling thread itself (queued failures); download and install-success
   events are reported by helper threads spawned for that purpose *)
Definition own_net (n : netobs) : bool :=
  match n with
  | NEvent e => match e_kind e with EvInstallFailure => true | _ => false end
  | _ => true
  end.

Definition block_actions (c : cfg) (g : stage) (d : disk) : list action :=
  let '(g', _, l) := block c g d in
  match g with
  | GDone _ => []
  | GUpd _ _ _ _ UTry => [TryUpd true]
  | _ => AcqCfg :: RelCfg :: map Net (filter own_net l)
  end ++ (if in_update g && negb (in_update g') then [RelUpd] else []).

Fixpoint stage_actions (fuel : nat) (c : cfg) (g : stage) (d : disk) : list action :=
  match fuel with
  | O => []
  | S f => match g with
           | GDone _ => []
           | _ => let '(g', d', _) := block c g d in block_actions c g d ++ stage_actions f c g' d'
           end
  end.

Fixpoint wf_go (depth : nat) (upd : bool) (l : list action) : option (nat * bool) :=
  match l with
  | [] => Some (depth, upd)
  | a :: r =>
      match a with
      | AcqCfg => if Nat.eqb depth 0 then wf_go 1 upd r else None          (* no re-entry *)
      | RelCfg => if Nat.eqb depth 1 then wf_go 0 upd r else None
      | Net _ => if Nat.eqb depth 0 then wf_go depth upd r else None        (* no network under the lock *)
      | TryUpd ok => if Nat.eqb depth 0 && negb upd then wf_go depth ok r else None  (* never under cfg *)
      | RelUpd => if Nat.eqb depth 0 && upd then wf_go depth false r else None
      | Spawn => wf_go depth upd r
      end
  end.

Lemma wf_go_app d u l1 l2 :
  wf_go d u (l1 ++ l2) = match wf_go d u l1 with Some (d', u') => wf_go d' u' l2 | None => None end.
Proof.
  revert d u. induction l1 as [|a l1 IH]; intros d u; cbn [app wf_go]; auto.
  destruct a; repeat match goal with |- context [if ?x then _ else _] => destruct x end; auto.
Qed.

Lemma wf_go_nets u l : wf_go 0 u (map Net l) = Some (0%nat, u).
Proof. induction l as [|n l IH]; cbn; auto. Qed.

Definition rank (g : stage) : nat :=
  match g with
  | GDone _ => 0
  | GOne _ => 1
  | GUpd _ _ _ _ u => match u with
                      | UTry => 9 | UCfg => 8 | UCopy => 7 | UClear _ => 6 | URb _ _ => 5
                      | UBad _ _ => 4 | UNxt _ _ => 3 | UIns _ _ => 2
                      end
  | GChk _ _ cs => match cs with CCfg => 5 | CRb _ _ => 4 | CBad _ => 3 | CNxt _ => 2 end
  end%nat.

Lemma done_or_rank g : (exists x, g = GDone x) \/ (1 <= rank g)%nat.
Proof. destruct g as [x|o|? ? ? ? u|? ? cs]; [eauto|right..]; [|destruct u|destruct cs]; cbn; lia. Qed.

Lemma stage_of_rank o : (1 <= rank (stage_of o) <= 9)%nat.
Proof. destruct o; cbn; lia. Qed.

Definition is_upd (g : stage) : bool := match g with GUpd _ _ _ _ _ => true | _ => false end.

Definition later (g g' : stage) : bool :=
  match g' with
  | GDone _ => true
  | _ => (rank g' <? rank g)%nat && Bool.eqb (is_upd g') (is_upd g)
  end.

Lemma later_rank g g' : later g g' = true -> (exists x, g' = GDone x) \/ (rank g' < rank g)%nat.
Proof.
  intros H. destruct g'; [eauto|right..]; apply andb_prop in H; apply Nat.ltb_lt; exact (proj1 H).
Qed.

Lemma later_in_update g g' : later g g' = true -> in_update g' = true -> is_upd g = true.
Proof.
  destruct g'; try discriminate. intros H _. apply andb_prop in H. symmetry. apply eqb_prop, H.
Qed.

(* whatever the state functions and the server answer, each branch of [block] ends in a later stage *)
Lemma block_later c g d : later g (fst (fst (block c g d))) = true.
Proof.
  unfold block, after_rb_u, after_rb_c.
  destruct g as [x|o|ch r dl log u|ch r cs]; [|destruct o|destruct u|destruct cs];
    repeat match goal with |- context [match ?x with _ => _ end] => destruct x end; reflexivity.
Qed.

Lemma block_advances c g d : (1 <= rank g)%nat -> (rank (fst (fst (block c g d))) < rank g)%nat.
Proof.
  intros Hr. destruct (later_rank _ _ (block_later c g d)) as [[x ->]|H]; [exact Hr|exact H].
Qed.

Lemma block_rank c g d : g <> GDone (match g with GDone x => x | _ => RUnit end) ->
  (rank (fst (fst (block c g d))) < rank g)%nat.
Proof.
  intros Hg. destruct (done_or_rank g) as [[x ->]|Hr]; [now elim Hg|exact (block_advances c g d Hr)].
Qed.

Lemma block_actions_wf c g d :
  wf_go 0 (in_update g) (block_actions c g d) = Some (0%nat, in_update (fst (fst (block c g d)))).
Proof.
  unfold block_actions.
  pose proof (later_in_update _ _ (block_later c g d)) as Hin.
  destruct (block c g d) as [[g' d'] l] eqn:E. cbn [fst] in *.
  destruct g as [x|o|ch r dl log u|ch r cs]; [injection E as <- _ _; reflexivity| |destruct u|].
  2: { (* try_lock *) injection E as <- _ _. reflexivity. }
  all: rewrite wf_go_app; cbn [wf_go Nat.eqb in_update andb]; rewrite wf_go_nets.
  (* the update mutex is released when an update leaves its last stage; other calls never hold it *)
  all: destruct (in_update g'); try reflexivity; discriminate (Hin eq_refl).
Qed.

Lemma stage_actions_S f c g d :
  (1 <= rank g)%nat ->
  stage_actions (S f) c g d =
  block_actions c g d ++ stage_actions f c (fst (fst (block c g d))) (snd (fst (block c g d))).
Proof.
  intros Hg. cbn [stage_actions]. destruct (block c g d) as [[g' d'] l].
  destruct g; [cbn in Hg; lia|reflexivity..].
Qed.

Theorem stage_actions_wf c : forall fuel g d,
  (rank g <= fuel)%nat ->
  wf_go 0 (in_update g) (stage_actions fuel c g d) = Some (0%nat, false).
Proof.
  induction fuel as [|f IH]; intros g d Hr;
    (destruct (done_or_rank g) as [[x ->]|Hg]; [reflexivity|]).
  - lia.
  - rewrite stage_actions_S, wf_go_app, block_actions_wf by exact Hg.
    apply IH. pose proof (block_advances c g d Hg). lia.
Qed.

Definition call_actions (c : cfg) (o : op) (d : disk) : list action :=
  stage_actions 9 c (stage_of o) d.

Theorem call_actions_wf c o d : wf_go 0 false (call_actions c o d) = Some (0%nat, false).
Proof.
  replace false with (in_update (stage_of o)) at 1 by (destruct o; reflexivity).
  apply stage_actions_wf, stage_of_rank.
Qed.

Definition work (t : thread) : nat := rank (t_stage t) + 10 * List.length (t_todo t).

Theorem step_decreases_work c i t d busy :
  thread_done t = false ->
  (work (fst (fst (fst (thread_step_b c i t d busy)))) < work t)%nat.
Proof.
  intros Hd.
  (* when the current call returns: the next one, if any, starts below rank 10 *)
  assert (Hret : forall x outs,
    (work match t_todo t with
          | [] => {| t_stage := GDone x; t_todo := []; t_outs := outs |}
          | o :: rest => {| t_stage := stage_of o; t_todo := rest; t_outs := outs |}
          end < work t)%nat).
  { intros x outs. unfold work, thread_done in *. destruct (t_todo t) as [|o rest]; cbn.
    - destruct (done_or_rank (t_stage t)) as [[y E]|H]; [rewrite E in Hd; discriminate|lia].
    - pose proof (stage_of_rank o). lia. }
  assert (Hstep : (work (fst (fst (thread_step c t d))) < work t)%nat).
  { unfold thread_step. pose proof (later_rank _ _ (block_later c (t_stage t) d)) as H.
    destruct (block c (t_stage t) d) as [[g d'] l]. cbn [fst] in H.
    destruct g as [x| | |]; [destruct (t_todo t); apply (Hret x)|..];
      destruct H as [[y H]|H]; try discriminate; unfold work; cbn [fst t_stage t_todo]; lia. }
  unfold thread_step_b. destruct (thread_step c t d) as [[t' d'] l].
  destruct (is_try (t_stage t)); [destruct busy|]; [apply Hret|exact Hstep..].
Qed.

Definition world_actions (w : world) (o : op) : list action :=
  match o with
  | ODamage _ | OKill => []
  | OInit relv y pk =>
      match cfg_of relv y with
      | None => []
      | Some _ => if negb pk then []
                  else match w_cfg w with
                       | Some _ => [AcqCfg; RelCfg]
                       | None => [AcqCfg; RelCfg; AcqCfg; RelCfg]
                       end
      end
  | _ => match w_cfg w with
         | Some c => call_actions c o (w_disk w)
         | None => match o with
                   | OUpdate _ _ _ => [TryUpd true; AcqCfg; RelCfg; RelUpd]
                   | _ => [AcqCfg; RelCfg]
                   end
         end
  end.

Theorem world_actions_wf w o : wf_go 0 false (world_actions w o) = Some (0%nat, false).
Proof.
  unfold world_actions. destruct o; try reflexivity;
    try (destruct (w_cfg w); [apply call_actions_wf|reflexivity]).
  destruct (cfg_of relv y); [|reflexivity]. destruct paths_ok; [|reflexivity].
  destruct (w_cfg w); reflexivity.
Qed.

End Blocks.
