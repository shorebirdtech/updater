(* C05 — nothing is installed unless the inflated download matches its hash. *)
From UV Require Import Base Codec Model Inv Calls.

(* "installed" only if applying the downloaded bytes to the base produced a file whose SHA-256 is the
   advertised one; the selection then records exactly that file and the artifact is byte-identical *)
Theorem C05_installed_only_if_verified :
  forall sha sigok zdec base (c : cfg) (d : disk) ch r dl d' log,
    do_update sha sigok zdec base c d ch r dl = (d', UInstalled, log) ->
    exists rs p bdl out,
      r = Some rs /\ r_avail rs = true /\ r_patch rs = Some p /\ dl = Some bdl /\
      apply_patch base (zdec bdl) = Some out /\
      (exists e, unhex (p_hash p) = Some e /\ bytes_eqb (sha out) e = true) /\
      nb (load_p d') = Some {| m_num := p_num p; m_size := blen out; m_hash := p_hash p; m_sig := p_sig p |} /\
      arts d' (p_num p) = Some (AFile out).
Proof.
  intros sha sigok zdec base c d ch r dl d' log H.
  destruct (installed_only_if_verified sha sigok zdec base c d ch r dl d' log H)
    as (rs & p & bdl & out & H1 & H2 & H3 & H4 & H5 & H6 & H7 & H8).
  exists rs, p, bdl, out. repeat split; auto.
  unfold hash_ok in H6. destruct (unhex (p_hash p)) as [e|]; [|discriminate]. exists e. auto.
Qed.
Print Assumptions C05_installed_only_if_verified.

(* every other download leaves exactly the disk a failed download leaves, same status, never installed *)
Theorem C05_rejected_download_frame :
  forall sha sigok zdec base (c : cfg) (d : disk) ch (rs : resp) (bdl : bytes) (p : patch),
    r_patch rs = Some p ->
    inflate zdec base bdl = None \/
      (exists out, inflate zdec base bdl = Some out /\ hash_ok sha out (p_hash p) = false) ->
    fst (fst (do_update sha sigok zdec base c d ch (Some rs) (Some bdl))) =
      fst (fst (do_update sha sigok zdec base c d ch (Some rs) None)) /\
    snd (fst (do_update sha sigok zdec base c d ch (Some rs) (Some bdl))) =
      snd (fst (do_update sha sigok zdec base c d ch (Some rs) None)) /\
    snd (fst (do_update sha sigok zdec base c d ch (Some rs) (Some bdl))) <> UInstalled.
Proof. exact rejected_download_frame. Qed.
Print Assumptions C05_rejected_download_frame.

(* ... and with no rollback listed, a settled state is left exactly as it was: same LB/NB/CB/ban list,
   same artifacts *)
Theorem C05_failed_update_unchanged :
  forall sha sigok zdec base (c : cfg) (d : disk) ch (rs : resp) dl,
    stable (c_rel c) d -> settled sha sigok (c_key c) d -> r_rb rs = None ->
    snd (fst (do_update sha sigok zdec base c d ch (Some rs) dl)) <> UInstalled ->
    let d' := fst (fst (do_update sha sigok zdec base c d ch (Some rs) dl)) in
    load_p d' = load_p d /\ arts d' = arts d.
Proof. exact failed_update_unchanged. Qed.
Print Assumptions C05_failed_update_unchanged.

(* Downloads.v: downloads/<n> and downloads/<n>.full are never deleted by the library, so every update runs on top of
   what earlier attempts (of this or an older release) left behind.  In the model the directory is an
   output only: *)
From UV Require Import Downloads.

(* whatever is lying in downloads/, a call does the same thing: same result, same network actions, same
   patch state and artifacts (the model-side statement of "File::create truncates and the download is
   always rewritten"; the correspondence check compares the directory after every op with leftovers of
   other lengths present) *)
Theorem C05_leftovers_never_read :
  forall sha sigok zdec base (w : world) (L L' : dls) (o : op),
    let '(wl1, r1, log1) := step2 sha sigok zdec base (w, L) o in
    let '(wl2, r2, log2) := step2 sha sigok zdec base (w, L') o in
    fst wl1 = fst wl2 /\ r1 = r2 /\ log1 = log2 /\ fst wl1 = fst (fst (step sha sigok zdec base w o)).
Proof.
  intros sha sigok zdec base w L L' o. unfold step2. cbn [fst snd].
  destruct (step sha sigok zdec base w o) as [[w' r] log]. cbn. auto.
Qed.
Print Assumptions C05_leftovers_never_read.

(* after an update that reached the download: downloads/<n> holds exactly the body the server sent
   (no stale tail), and <n>.full is gone iff the patch was installed (add_patch renamed it into place);
   a rejected output is left behind in full, a failed inflate leaves some prefix
   (RStatus 1 is the C-level result of an installing update: status_code UInstalled) *)
Theorem C05_download_dir_after_update :
  forall sha sigok zdec base (w : world) (L : dls) ch (rs : resp) (body : bytes) (p : patch) c w' r log L',
    w_cfg w = Some c -> r_patch rs = Some p ->
    step2 sha sigok zdec base (w, L) (OUpdate ch (Some rs) (Some body)) = ((w', L'), r, log) ->
    existsb is_download log = true ->
    dl_file L' (p_num p) = Some body /\
    (forall k, k <> p_num p -> dl_file L' k = dl_file L k /\ dl_full L' k = dl_full L k) /\
    match inflate zdec base body with
    | None => dl_full L' (p_num p) = Some FPartial
    | Some outb => dl_full L' (p_num p) = match r with RStatus 1 => None | _ => Some (FBytes outb) end
    end.
Proof.
  intros sha sigok zdec base w L ch rs body p c w' r log L' Hc Hp H Hd.
  unfold step2 in H. cbn [fst snd] in H.
  destruct (step sha sigok zdec base w (OUpdate ch (Some rs) (Some body))) as [[w1 r1] log1] eqn:E.
  inversion H; subst; clear H.
  unfold dl_step. rewrite Hc, Hp, Hd.
  assert (Hne : forall k, k <> p_num p -> (k =? p_num p) = false) by (intros; apply N.eqb_neq; auto).
  (* in every case [dl_step] is set_full (set_file L n (Some body)) n _; the cases of the result are those of the
     statement's match: not a status, or RStatus z with z zero, 1 (the only positive that is neither 2p+1 nor 2p)
     or negative *)
  destruct (inflate zdec base body) as [outb|]; [destruct r as [| | | |z]; try (destruct z as [|[| |]|])|];
    cbn; rewrite N.eqb_refl; (split; [reflexivity|split; [|reflexivity]]);
    intros k Hk; rewrite (Hne k Hk); split; reflexivity.
Qed.
Print Assumptions C05_download_dir_after_update.

(* an update that never reached the download (refused, failed check, banned or already-installed offer,
   failed download request) and every other call leave the directory untouched *)
Theorem C05_download_dir_untouched :
  forall sha sigok zdec base (w : world) (L : dls) (o : op) wl r log,
    step2 sha sigok zdec base (w, L) o = (wl, r, log) ->
    existsb is_download log = false -> snd wl = L.
Proof.
  intros sha sigok zdec base w L o wl r log H Hd. unfold step2 in H. cbn [fst snd] in H.
  destruct (step sha sigok zdec base w o) as [[w1 r1] log1]. inversion H; subst; clear H. cbn [snd].
  unfold dl_step. destruct o; try reflexivity.
  destruct r0 as [rs|]; [|reflexivity]. destruct dl as [body|]; [|reflexivity].
  destruct (w_cfg w); [|reflexivity]. destruct (r_patch rs); [|reflexivity]. rewrite Hd. reflexivity.
Qed.
Print Assumptions C05_download_dir_untouched.

(* The same "only if" with faults, the files of the download directory included (Fault.v: download_to_path, inflate
   and check_hash as system-call steps).  For EVERY plan - no fault, process death anywhere, any single failing system
   call - an update that returns 'installed' has moved into place exactly the file check_hash read back from
   <n>.full: the inflated output, or what was left of it if the write at the BufWriter's drop failed silently; the
   SHA-256 of THAT file is the advertised one, and patches_state.json names it with its length (or is garbage, in
   which case nothing is selected).  A gate on the bytes "intended for disk" does not satisfy this statement. *)
From UV Require Import Fault FaultProofs.
Theorem C05_installed_is_the_verified_file_under_faults :
  forall sha sigok zdec base (c : cfg) r dl (pl : plan) c0 (d0 : disk) c1 d1,
    do_updateM sha sigok zdec base c r dl pl c0 d0 = (Ret UInstalled, c1, d1) ->
    exists rs p bdl out fileb,
      r = Some rs /\ r_patch rs = Some p /\ dl = Some bdl /\ inflate zdec base bdl = Some out /\
      (fileb = out \/ fileb = flushed_prefix out) /\
      hash_ok sha fileb (p_hash p) = true /\
      arts d1 (p_num p) = Some (AFile fileb) /\
      (pj d1 = JGarbage \/
       exists s, pj d1 = JOk s /\
         nb s = Some {| m_num := p_num p; m_size := blen fileb; m_hash := p_hash p; m_sig := p_sig p |} /\
         ~ In (p_num p) (bad s)).
Proof.
  intros sha sigok zdec base c r dl pl c0 d0 c1 d1 H.
  exact (tri_inv (installed_is_the_verified_file sha sigok zdec base c r dl) (okpl_true pl) Logic.I H eq_refl).
Qed.
Print Assumptions C05_installed_is_the_verified_file_under_faults.

(* a fault in the download directory never touches the persisted state: whatever download_to_path + inflate return
   or wherever they die, the disk is the one they started from *)
Theorem C05_download_steps_leave_the_state_alone :
  forall zdec base bdl (pl : plan) c0 (d0 : disk) o c1 d1,
    downloadM zdec base bdl pl c0 d0 = (o, c1, d1) -> d1 = d0.
Proof.
  intros zdec base bdl pl c0 d0 o c1 d1 H.
  (* the download steps keep every predicate of the disk (G_download asks nothing of I but that it gives S):
     take "is d0" for both *)
  pose proof (G_download zdec base true (fun d => d = d0) _ (fun _ E => E) bdl) as K.
  apply pres_tri in K. apply (tri_inv K (okpl_true pl) eq_refl) in H.
  destruct o; [apply H|exact H..].
Qed.
Print Assumptions C05_download_steps_leave_the_state_alone.
