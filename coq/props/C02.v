(* C02 — a patch that failed to boot is never booted or installed again. *)
From UV Require Import Base Model Inv Ban Handout.

(* I-ban is preserved by every call from every world; only outside damage to patches_state.json
   could break it. *)
Theorem C02_ban_invariant :
  forall sha sigok zdec base (w : world) (o : op),
    ~ pj_damage o -> IbanD (w_disk w) ->
    IbanD (w_disk (fst (fst (step sha sigok zdec base w o)))).
Proof. exact step_IbanD. Qed.
Print Assumptions C02_ban_invariant.

(* Within a release and without state-file damage the ban list only grows, across restarts. *)
Theorem C02_ban_monotone :
  forall sha sigok zdec base (r : string) (w : world) (o : op),
    within r w o -> stable r (w_disk w) ->
    BM r (w_disk w) (w_disk (fst (fst (step sha sigok zdec base w o)))) /\
    (forall c, w_cfg (fst (fst (step sha sigok zdec base w o))) = Some c -> c_rel c = r).
Proof. exact step_BM. Qed.
Print Assumptions C02_ban_monotone.

(* A reported failure and a crash detected at init both ban the booting patch. *)
Theorem C02_failure_bans :
  forall sha sigok (c : cfg) (d : disk) (m : meta),
    cb (load_p (norm c d)) = Some m ->
    In (m_num m) (bad (load_p (fst (cs_failure sha sigok c d)))).
Proof. intros. rewrite Sections.cs_failure_disk. apply fail_disk_bans. assumption. Qed.
Print Assumptions C02_failure_bans.

Theorem C02_crash_detection_bans :
  forall sha sigok (c : cfg) (d : disk) (m : meta),
    cb (load_p (norm c d)) = Some m ->
    In (m_num m) (bad (load_p (cs_init_recover sha sigok c d))).
Proof. intros. rewrite Sections.cs_init_recover_disk. apply fail_disk_bans. assumption. Qed.
Print Assumptions C02_crash_detection_bans.

(* An update offered a banned number answers "bad patch", downloads nothing, keeps the ban. *)
Theorem C02_update_offer_of_banned :
  forall sha sigok zdec base (c : cfg) (d : disk) ch (rs : resp) (p : patch) dl,
    stable (c_rel c) d -> In (p_num p) (bad (load_p d)) ->
    r_avail rs = true -> r_patch rs = Some p ->
    let '(d', st, log) := do_update sha sigok zdec base c d ch (Some rs) dl in
    st = UBadPatch /\ no_download log /\ In (p_num p) (bad (load_p d')).
Proof. exact update_offer_of_banned. Qed.
Print Assumptions C02_update_offer_of_banned.

Theorem C02_check_offer_of_banned :
  forall sha sigok (c : cfg) (d : disk) ch (rs : resp) (p : patch),
    stable (c_rel c) d -> In (p_num p) (bad (load_p d)) -> r_patch rs = Some p ->
    snd (fst (do_check sha sigok c d ch (Some rs))) = false.
Proof. exact check_offer_of_banned. Qed.
Print Assumptions C02_check_offer_of_banned.

(* For every history within the release (any calls, any restarts, any artifact damage, no state-file
   damage): once n is banned, no call ever reports n, downloads n or installs n again. *)
Theorem C02_banned_forever :
  forall sha sigok zdec base (r : string) (n : N) (ops : list op) (w : world),
    Banned r n w -> all_within sha sigok zdec base r w ops ->
    all_respect sha sigok zdec base n w ops.
Proof. exact banned_forever. Qed.
Print Assumptions C02_banned_forever.

(* non-vacuity: a reachable banned world *)
Definition ex_sha (b : bytes) : bytes := b.
Definition ex_sigok (_ _ _ : string) : bool := true.
Definition ex_cfg : cfg := {| c_app := "a"; c_rel := "1"; c_chan := "stable"; c_key := None; c_auto := true |}.
Definition ex_meta : meta := {| m_num := 7; m_size := 2; m_hash := "h"; m_sig := None |}.
Definition ex_disk : disk :=
  {| sj := JOk {| rel := "1"; evq := [] |};
     pj := JOk {| lb := None; nb := Some ex_meta; cb := Some ex_meta; bad := [] |};
     arts := fun k => if N.eqb k 7 then Some (AFile [1; 2]) else None; junk := false |}.
Definition ex_w := fst (fst (step ex_sha ex_sigok ex_sha [] {| w_disk := ex_disk; w_cfg := Some ex_cfg |} OFailure)).
Example C02_nonvacuous : Banned "1" 7 ex_w.
Proof.
  unfold Banned. split; [eexists; split; vm_compute; reflexivity|].
  split; [|split; [vm_compute; auto|]].
  - intros k Hk. vm_compute in Hk. destruct Hk as [<-|[]]. vm_compute. auto.
  - intros c E. vm_compute in E. injection E as <-. reflexivity.
Qed.
