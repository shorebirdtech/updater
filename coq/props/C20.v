(* C20 — requests identify exactly this app, release and the selected channel. *)
From UV Require Import Base Model Calls.

Theorem C20_request :
  forall sha sigok zdec base (w : world) (o : op) (c : cfg) (q : request),
    w_cfg w = Some c -> In (NCheck q) (snd (step sha sigok zdec base w o)) ->
    exists ch, chan_of o = Some ch /\
               q = {| q_app := c_app c;
                      q_chan := match ch with Some x => x | None => c_chan c end;
                      q_rel := c_rel c |}.
Proof. exact request_formula. Qed.
Print Assumptions C20_request.

Theorem C20_config_from_init :
  forall (relv app : string) (chan key : option string) (auto : option bool) (c : cfg),
    cfg_of relv (YOk app chan key auto) = Some c ->
    c_app c = app /\ c_rel c = relv /\ c_key c = key /\
    c_chan c = match chan with Some x => x | None => "stable"%string end.
Proof. exact cfg_channel. Qed.
Print Assumptions C20_config_from_init.

(* a channel passed to one call never leaks into later calls *)
Theorem C20_no_leak :
  forall sha sigok zdec base (c : cfg) (ops : list op) (w : world),
    w_cfg w = Some c -> ~ In OKill ops -> all_requests_ok sha sigok zdec base c w ops.
Proof. exact requests_never_leak. Qed.
Print Assumptions C20_no_leak.

(* tie to the current sources (gen/Consts.v is regenerated from /repo on every run): the default
   channel, the request's fields (as a set: listed in alphabetical order) and where each one is taken from *)
From UVG Require Import Consts.
Theorem C20_constants_from_source :
  default_channel = gen_default_channel /\
  gen_request_fields = ["app_id"; "arch"; "channel"; "platform"; "release_version"]%string /\
  gen_request_sources =
    [("app_id", "config.app_id"); ("arch", "current_arch"); ("channel", "config.channel");
     ("platform", "current_platform"); ("release_version", "config.release_version")]%string /\
  gen_check_url_suffix = "/api/v1/patches/check"%string.
Proof. repeat split; reflexivity. Qed.
Print Assumptions C20_constants_from_source.
