(* C16 — every patch the packaging tool produces inflates back to the new binary. *)
From UV Require Import Base Codec Model Inv Calls CodecProofs Chunked Bsdiff BsdiffProofs BsdiffSafe.

(* integer-encoding: what the writer emits is what the reader decodes, for every usize / i64 *)
Theorem C16_varint_u64 :
  forall (n : N) (r : bytes), n < two64 -> dec_u (enc_u n ++ r) = VOk n r.
Proof. exact varint_u64. Qed.
Print Assumptions C16_varint_u64.

Theorem C16_varint_i64 :
  forall (z : Z) (r : bytes), (- two63 <= z < two63)%Z -> dec_s (enc_s z ++ r) = VOk z r.
Proof. exact varint_i64. Qed.
Print Assumptions C16_varint_i64.

(* bidiff Translator + enc::Writer, then bipatch Reader: for ANY well-formed match list (matches tile
   the new file, add ranges lie inside the old file, first add range starts at 0) — whatever the
   suffix-array search found — applying the written patch to [old] yields [new] byte for byte *)
Theorem C16_roundtrip :
  forall (old new : bytes) (ms : list bmatch),
    wf_bytes old -> wf_bytes new ->
    (Z.of_N (blen old) < two63)%Z -> (Z.of_N (blen new) < two63)%Z ->
    wf_matches old new ms = true ->
    apply_patch old (simple_diff old new ms) = Some new.
Proof. exact roundtrip. Qed.
Print Assumptions C16_roundtrip.

(* The library does not apply the patch in one piece: std::io::copy pulls it through
   bipatch::Reader::read with buffers of its own choosing, and the Reader moves add blocks through a
   4096-byte scratch buffer.  For EVERY sequence of non-empty buffer sizes and every scratch size the
   streamed result is the one-shot result, error for error (target sizes crossing any internal buffer
   size included) *)
Theorem C16_any_buffer_schedule :
  forall (old : bytes) (cap : N) (sizes : nat -> N),
    0 < cap -> (forall j, 0 < sizes j) ->
    forall patch : bytes, apply_patch_chunked cap sizes old patch = apply_patch old patch.
Proof. exact chunked_is_oneshot. Qed.
Print Assumptions C16_any_buffer_schedule.

Theorem C16_streamed_roundtrip :
  forall (old new : bytes) (ms : list bmatch) (cap : N) (sizes : nat -> N),
    wf_bytes old -> wf_bytes new ->
    (Z.of_N (blen old) < two63)%Z -> (Z.of_N (blen new) < two63)%Z ->
    wf_matches old new ms = true ->
    0 < cap -> (forall j, 0 < sizes j) ->
    apply_patch_chunked cap sizes old (simple_diff old new ms) = Some new.
Proof.
  intros old new ms cap sizes Wo Wn Bo Bn Hwf Hc Hs.
  rewrite chunked_is_oneshot by assumption. apply roundtrip; assumption.
Qed.
Print Assumptions C16_streamed_roundtrip.

(* non-vacuity: a two-record patch streamed through 1-byte buffers with a 2-byte scratch *)
Example C16_chunked_example :
  apply_patch_chunked 2 (fun _ => 1) [10; 20; 30; 40; 50]
    (header ++ [3; 1; 1; 1; 2; 7; 8; 0] ++ [2; 0; 0; 1; 9; 0])
  = Some [11; 21; 31; 7; 8; 40; 50; 9].
Proof. vm_compute. reflexivity. Qed.

(* the hash the tool prints (hex of SHA-256 of the new file) passes the library's hash gate *)
Theorem C16_hash_gate :
  forall (sha : bytes -> bytes) (new : bytes),
    wf_bytes (sha new) -> hash_ok sha new (hex_of_bytes (sha new)) = true.
Proof.
  intros sha new W. unfold hash_ok. rewrite unhex_hex by exact W. apply bytes_eqb_refl.
Qed.
Print Assumptions C16_hash_gate.

(* end to end: given a lossless compressor (zdec (zenc x) = x), the library installs what the tool built *)
Theorem C16_end_to_end :
  forall sha sigok zdec (zenc : bytes -> bytes) (base new : bytes) (ms : list bmatch)
         (c : cfg) (d : disk) ch (rs : resp) (p : patch),
    (forall x, zdec (zenc x) = x) ->
    wf_bytes base -> wf_bytes new -> wf_bytes (sha new) ->
    (Z.of_N (blen base) < two63)%Z -> (Z.of_N (blen new) < two63)%Z ->
    wf_matches base new ms = true ->
    stable (c_rel c) d -> settled sha sigok (c_key c) d ->
    r_rb rs = None -> r_avail rs = true -> r_patch rs = Some p ->
    p_hash p = hex_of_bytes (sha new) ->
    ~ In (p_num p) (bad (load_p d)) -> onum (nb (load_p d)) <> Some (p_num p) ->
    snd (fst (do_update sha sigok zdec base c d ch (Some rs) (Some (zenc (simple_diff base new ms))))) = UInstalled.
Proof.
  intros sha sigok zdec zenc base new ms c d ch rs p Hz Wb Wn Ws Bb Bn Hwf Hst Hse Er Ea Ep Eh Hb Hn.
  apply (healthy_update_installs sha sigok zdec base c d ch rs p _ new); auto.
  - unfold inflate. rewrite Hz. apply roundtrip; auto.
  - rewrite Eh. apply C16_hash_gate. exact Ws.
Qed.
Print Assumptions C16_end_to_end.

(* The scan loop of bidiff (BsdiffIterator), with the suffix-array matcher as an oracle.
   Whatever `longest_substring_match` answers at each scan position — right or wrong, longest or not — as
   long as the match it reports lies inside the two buffers, the Matches the loop emits are well formed.
   So the hypothesis [wf_matches] of the round-trip theorems is discharged for the tool's own scan loop. *)
Theorem C16_scan_loop_emits_wf_matches :
  forall (old new : bytes) (lsm : N -> N * N),
    lsm_bounded old new lsm ->
    forall ms : list bmatch, bsdiff old new lsm = Ok ms -> wf_matches old new ms = true.
Proof. exact bsdiff_wf. Qed.
Print Assumptions C16_scan_loop_emits_wf_matches.

(* the loop ends: |new| + 2 turns of the outer loop are always enough *)
Theorem C16_scan_loop_terminates :
  forall (old new : bytes) (lsm : N -> N * N),
    lsm_bounded old new lsm -> bsdiff old new lsm <> OutOfFuel.
Proof. exact bsdiff_terminates. Qed.
Print Assumptions C16_scan_loop_terminates.

(* tool -> library, with no assumption on the match list: scan loop, Translator, Writer, then the
   streamed Reader with any buffer schedule *)
Theorem C16_tool_roundtrip :
  forall (old new : bytes) (lsm : N -> N * N) (ms : list bmatch) (cap : N) (sizes : nat -> N),
    wf_bytes old -> wf_bytes new ->
    (Z.of_N (blen old) < two63)%Z -> (Z.of_N (blen new) < two63)%Z ->
    lsm_bounded old new lsm ->
    bsdiff old new lsm = Ok ms ->
    0 < cap -> (forall j, 0 < sizes j) ->
    apply_patch_chunked cap sizes old (simple_diff old new ms) = Some new.
Proof.
  intros old new lsm ms cap sizes Wo Wn Bo Bn Hl Hb Hc Hs.
  apply C16_streamed_roundtrip; auto. eapply bsdiff_wf; eauto.
Qed.
Print Assumptions C16_tool_roundtrip.

(* non-vacuity: a matcher that always answers "no match" and one that finds a real match *)
Example C16_scan_loop_example_nomatch :
  bsdiff [1; 2; 3] [7; 8] (fun _ => (0, 0)) =
  Ok [{| add_old_start := 0; add_new_start := 0; add_length := 0; copy_end := 2 |}].
Proof. vm_compute. reflexivity. Qed.
Example C16_scan_loop_example_match :
  exists ms, bsdiff [1;2;3;4;5;6;7;8;9;10;11;12] [9;9;1;2;3;4;5;6;7;8;9;10;11;12]
                    (fun sc => if sc <? 2 then (0, 0) else (sc - 2, 14 - sc)) = Ok ms
             /\ 1 < N.of_nat (List.length ms) /\ wf_matches [1;2;3;4;5;6;7;8;9;10;11;12] [9;9;1;2;3;4;5;6;7;8;9;10;11;12] ms = true.
Proof. eexists. vm_compute. repeat split. Qed.

(* the scan loop never indexes obuf / nbuf out of range and never underflows a usize subtraction: the
   instrumented twin of the loop (BsdiffSafe.v) checks every unguarded index expression and every subtraction,
   and under the matcher's bound all checks succeed - with the two theorems above: on any input the tool's scan
   loop terminates without an index panic and emits a well-formed match list (the remaining way to abort,
   `oldscore -= 1` on zero, needs a matcher that misses an existing one-byte match) *)
Theorem C16_scan_loop_index_safe :
  forall (old new : bytes) (lsm : N -> N * N),
    lsm_bounded old new lsm -> outer_ok old new lsm (S (S (N.to_nat (nlen new)))) bs0 = true.
Proof. exact bsdiff_index_safe. Qed.
Print Assumptions C16_scan_loop_index_safe.
