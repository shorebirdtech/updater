(* C01 — only an intact, verified patch is ever handed out for boot.  Statements only; proofs are
   in theories/Handout.v and theories/Prov.v.  No hypothesis on the world: any disk content (damage included). *)
From UV Require Import Base Model Handout Prov.

(* Whatever a query reports (number or path), from ANY world: the reported number is the stored
   selection, its artifact file exists with exactly the recorded size and, under a signing key,
   carries a signature that verifies over the hash of the file's current bytes. *)
Theorem C01_handout :
  forall sha sigok zdec base (w : world) (o : op) (w' : world) (x : out) (log : list netobs) (n : N),
    step sha sigok zdec base w o = (w', x, log) ->
    reports o x n ->
    exists c, w_cfg w' = Some c /\
      exists m b,
        nb (load_p (w_disk w')) = Some m /\ m_num m = n /\
        arts (w_disk w') n = Some (AFile b) /\ blen b = m_size m /\
        (forall k, c_key c = Some k ->
                   exists s, m_sig m = Some s /\ sigok k (hex_of_bytes (sha b)) s = true).
Proof. exact step_handout. Qed.
Print Assumptions C01_handout.

(* Launch start hands the engine exactly such a patch, or leaves the booting record untouched. *)
Theorem C01_start :
  forall sha sigok (c : cfg) (d : disk),
    match snd (cs_next sha sigok c d) with
    | Some n => cb (load_p (cs_start sha sigok c d)) = nb (load_p (cs_start sha sigok c d)) /\
                intact sha sigok (c_key c) (cs_start sha sigok c d) n
    | None => cb (load_p (cs_start sha sigok c d)) = cb (load_p (norm c d))
    end.
Proof. exact cs_start_intact. Qed.
Print Assumptions C01_start.

(* A stored selection that is missing, resized or not signed is never the number reported; what is
   reported instead is the last booted patch if that one is intact, else nothing. *)
Theorem C01_invalid_not_reported :
  forall sha sigok (c : cfg) (d : disk) (m : meta),
    nb (load_p (norm c d)) = Some m ->
    validate sha sigok (c_key c) (norm c d) m = false ->
    snd (cs_next sha sigok c d) <> Some (m_num m) /\
    snd (cs_next sha sigok c d) =
      onum (match lb (load_p (norm c d)) with
            | Some l => if negb (N.eqb (m_num l) (m_num m)) &&
                           validate sha sigok (c_key c) (del_art (norm c d) (m_num m)) l
                        then Some l else None
            | None => None
            end).
Proof. exact cs_next_invalid_not_reported. Qed.
Print Assumptions C01_invalid_not_reported.

(* "exactly the size it had when the patch passed hash verification at install time": from a disk
   whose records were all issued by verified installs (the empty disk is one), after ANY history of
   calls and damage -- artifacts, state.json and junk arbitrarily damaged; patches_state.json
   deleted, garbled, or replaced by a stale copy -- the file a query hands out has exactly the
   length of the inflated download that passed the hash gate when its record was installed. *)
Theorem C01_size_is_install_size :
  forall sha sigok zdec base (w0 : world) (ops : list op) (o : op) (w' : world) (x : out)
         (log : list netobs) (n : N),
    AllOk sha zdec base (w_disk w0) -> Forall (ok_op sha zdec base) ops ->
    step sha sigok zdec base (fst (run sha sigok zdec base w0 ops)) o = (w', x, log) ->
    reports o x n ->
    exists m b bdl out,
      nb (load_p (w_disk w')) = Some m /\ m_num m = n /\
      arts (w_disk w') n = Some (AFile b) /\
      inflate zdec base bdl = Some out /\ hash_ok sha out (m_hash m) = true /\ blen b = blen out.
Proof. exact handout_size_provenance. Qed.
Print Assumptions C01_size_is_install_size.

(* the invariant behind it, for every step and every history *)
Theorem C01_records_are_issued :
  forall sha sigok zdec base (w : world) (ops : list op),
    Forall (ok_op sha zdec base) ops -> AllOk sha zdec base (w_disk w) ->
    AllOk sha zdec base (w_disk (fst (run sha sigok zdec base w ops))).
Proof. intros. apply run_prov; assumption. Qed.
Print Assumptions C01_records_are_issued.

(* the premises are met by the empty disk, and a stale copy of an earlier file is admissible *)
Example C01_fresh_is_ok : forall sha zdec base r, AllOk sha zdec base (fresh_disk r).
Proof. exact AllOk_fresh. Qed.
Example C01_stale_is_ok :
  forall sha zdec base d, AllOk sha zdec base d -> ok_op sha zdec base (ODamage (DSetPj (JOk (load_p d)))).
Proof. exact stale_is_ok. Qed.

(* non-vacuity: a concrete world in which a patch is reported, and one where damage suppresses it *)
Definition ex_sha (b : bytes) : bytes := b.
Definition ex_sigok (_ _ _ : string) : bool := true.
Definition ex_cfg : cfg := {| c_app := "a"; c_rel := "1"; c_chan := "stable"; c_key := None; c_auto := true |}.
Definition ex_meta : meta := {| m_num := 7; m_size := 2; m_hash := "h"; m_sig := None |}.
Definition ex_disk (b : bytes) : disk :=
  {| sj := JOk {| rel := "1"; evq := [] |};
     pj := JOk {| lb := None; nb := Some ex_meta; cb := None; bad := [] |};
     arts := fun k => if N.eqb k 7 then Some (AFile b) else None; junk := false |}.
Example C01_nonvacuous_reported :
  snd (fst (step ex_sha ex_sigok ex_sha [] {| w_disk := ex_disk [1; 2]; w_cfg := Some ex_cfg |} ONextNum)) = RNum 7.
Proof. vm_compute. reflexivity. Qed.
Example C01_nonvacuous_truncated :
  snd (fst (step ex_sha ex_sigok ex_sha [] {| w_disk := ex_disk [1]; w_cfg := Some ex_cfg |} ONextPath)) = RPath None.
Proof. vm_compute. reflexivity. Qed.
