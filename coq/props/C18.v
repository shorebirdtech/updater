(* C18 — the reported current patch tracks what is actually running. *)
From UV Require Import Base Model Inv Ban Frames2 Frames3 Frames4.

(* launch start turns the validated selection into the booting record *)
Theorem C18_start_sets_current :
  forall sha sigok (c : cfg) (d : disk) (m : meta),
    stable (c_rel c) d -> SelD sha sigok SNB (c_key c) d m ->
    Current sha sigok (c_key c) (cs_start sha sigok c d) m.
Proof. intros. left. apply cs_start_sets_CB; auto. Qed.
Print Assumptions C18_start_sets_current.

(* while it is "current" the current-patch query reports it *)
Theorem C18_current_reported :
  forall sha sigok (c : cfg) (d : disk) (m : meta),
    stable (c_rel c) d -> Current sha sigok (c_key c) d m -> snd (cs_current c d) = Some (m_num m).
Proof. exact current_reported. Qed.
Print Assumptions C18_current_reported.

(* and it stays current through success reports, queries, checks, installs and rollbacks of other
   patches: everything except a second launch start, a failure report, a new process, a rollback
   naming it or damage to it (cur_undisturbed, Frames4.v) *)
Theorem C18_current_frame :
  forall sha sigok zdec base (r : string) (key : option string) (w : world) (o : op) (m : meta),
    within r w o -> keyed key w o -> stable r (w_disk w) ->
    Current sha sigok key (w_disk w) m -> cur_undisturbed zdec base m w o ->
    Current sha sigok key (w_disk (stepw sha sigok zdec base w o)) m.
Proof. exact Current_frame. Qed.
Print Assumptions C18_current_frame.

Theorem C18_current_persists :
  forall sha sigok zdec base (r : string) (key : option string) (m : meta) (ops : list op) (w : world),
    InRel r w -> Current sha sigok key (w_disk w) m ->
    along sha sigok zdec base
      (fun w o => within r w o /\ keyed key w o /\ cur_undisturbed zdec base m w o) w ops ->
    Current sha sigok key (w_disk (final sha sigok zdec base w ops)) m.
Proof. exact current_persists. Qed.
Print Assumptions C18_current_persists.

(* "restart required" is not raised spuriously: with no install in between the selection does not
   change (the statement of C09_selection_persists; the current patch is C18_current_persists above) *)
Theorem C18_no_spurious_restart_required :
  forall sha sigok zdec base (r : string) (key : option string) (m : meta) (ops : list op) (w : world),
    InRel r w -> SelD sha sigok SNB key (w_disk w) m ->
    along sha sigok zdec base
      (fun w o => within r w o /\ keyed key w o /\ nb_undisturbed sha sigok zdec base m w o) w ops ->
    SelD sha sigok SNB key (w_disk (final sha sigok zdec base w ops)) m.
Proof. intros sha sigok zdec base. exact (Sel_persists sha sigok zdec base SNB). Qed.
Print Assumptions C18_no_spurious_restart_required.

(* after a restart, before the next launch start, current = last good *)
Theorem C18_after_restart :
  forall (c : cfg) (d : disk),
    cbD (norm c d) = None -> snd (cs_current c d) = onum (lb (load_p (norm c d))).
Proof. exact current_after_restart. Qed.
Print Assumptions C18_after_restart.

(* 'restart required' is derived in the Dart layer (shorebird_updater_io.dart) from the two numbers the
   library reports; the source text of that derivation is regenerated from the Dart file on every run
   (gen/AbiTables.v): in both places it is "a next patch exists and its number differs from the current
   one", and a reported number is a patch exactly when it is positive (0 = none, as the C API promises).
   With C18_no_spurious_restart_required and C09_install_selects this is the sentence "becomes true
   exactly when a different patch has been installed for the next launch". *)
From UVG Require Import AbiTables.
Theorem C18_dart_restart_required_formula :
  dart_restart_required_exprs =
    ["next != null && current?.number != next.number"%string;
     "next != null && current?.number != next.number"%string] /\
  dart_patch_of_number_exprs = ["patchNumber > 0 ? Patch(number: patchNumber) : null"%string].
Proof. split; reflexivity. Qed.
Print Assumptions C18_dart_restart_required_formula.

(* the same formula over the model's outputs: with next = n and current = c as reported numbers *)
Definition restart_required (cur next : N) : bool := negb (N.eqb next 0) && negb (N.eqb cur next).
Theorem C18_restart_required_iff_different_selection :
  forall cur next, restart_required cur next = true <-> next <> 0 /\ cur <> next.
Proof.
  intros cur next. unfold restart_required. rewrite Bool.andb_true_iff, !Bool.negb_true_iff, !N.eqb_neq. tauto.
Qed.
Print Assumptions C18_restart_required_iff_different_selection.
