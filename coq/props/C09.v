(* C09 — an installed patch stays selected until something happens to that patch. *)
From UV Require Import Base Model Inv Ban Handout Frames2 Frames3 Frames4.

(* after "installed", the offered number is the stored selection and (when the served signature
   verifies, or no key is configured) the very next query reports it *)
Theorem C09_install_selects :
  forall sha sigok zdec base (c : cfg) (d : disk) ch r dl d' log,
    stable (c_rel c) d ->
    do_update sha sigok zdec base c d ch r dl = (d', UInstalled, log) ->
    exists rs p bdl out,
      r = Some rs /\ r_patch rs = Some p /\ dl = Some bdl /\ inflate zdec base bdl = Some out /\
      nb (load_p d') = Some (new_meta p out) /\
      (sig_verifies sha sigok c p out -> cs_next sha sigok c d' = (d', Some (p_num p))).
Proof. exact install_selects. Qed.
Print Assumptions C09_install_selects.

(* one call: a selected patch with an intact artifact stays selected, artifact intact, through
   every call that is not: a failed/crashed boot of it, a rollback naming it, an update that
   installs, or damage to it (nb_undisturbed, theories/Frames3.v) *)
Theorem C09_selection_frame :
  forall sha sigok zdec base (r : string) (key : option string) (w : world) (o : op) (m : meta),
    within r w o -> keyed key w o -> stable r (w_disk w) ->
    SelD sha sigok SNB key (w_disk w) m -> nb_undisturbed sha sigok zdec base m w o ->
    SelD sha sigok SNB key (w_disk (stepw sha sigok zdec base w o)) m.
Proof. intros sha sigok zdec base. exact (Sel_frame sha sigok zdec base SNB). Qed.
Print Assumptions C09_selection_frame.

(* every history: restarts, reports for other patches, checks, rollbacks of other numbers, failed
   and no-op updates, second inits ... *)
Theorem C09_selection_persists :
  forall sha sigok zdec base (r : string) (key : option string) (m : meta) (ops : list op) (w : world),
    InRel r w -> SelD sha sigok SNB key (w_disk w) m ->
    along sha sigok zdec base
      (fun w o => within r w o /\ keyed key w o /\ nb_undisturbed sha sigok zdec base m w o) w ops ->
    SelD sha sigok SNB key (w_disk (final sha sigok zdec base w ops)) m.
Proof. intros sha sigok zdec base. exact (Sel_persists sha sigok zdec base SNB). Qed.
Print Assumptions C09_selection_persists.

(* ... and in such a state every query reports it, leaving the disk untouched *)
Theorem C09_selected_is_reported :
  forall sha sigok (c : cfg) (d : disk) (m : meta),
    stable (c_rel c) d -> SelD sha sigok SNB (c_key c) d m ->
    cs_next sha sigok c d = (d, Some (m_num m)).
Proof. exact selected_is_reported. Qed.
Print Assumptions C09_selected_is_reported.

(* offering the selected number again answers "no update" without any download *)
Theorem C09_already_installed :
  forall sha sigok zdec base (c : cfg) (d : disk) ch (rs : resp) (p : patch) dl (m : meta),
    stable (c_rel c) d -> SelD sha sigok SNB (c_key c) d m -> ~ In (m_num m) (bad (load_p d)) ->
    r_avail rs = true -> r_patch rs = Some p -> p_num p = m_num m -> not_listed (m_num m) rs ->
    snd (fst (do_update sha sigok zdec base c d ch (Some rs) dl)) = UNoUpdate /\
    no_download (snd (do_update sha sigok zdec base c d ch (Some rs) dl)) /\
    SelD sha sigok SNB (c_key c) (fst (fst (do_update sha sigok zdec base c d ch (Some rs) dl))) m.
Proof. exact already_installed. Qed.
Print Assumptions C09_already_installed.

(* The same, read off the abstract machine.  These are statements about Spec.v alone (SpecProps.v);
   C03_calls_refine_the_abstract_machine (props/C03.v) carries them to the model's calls. *)
From UV Require Import Spec SpecProps.

(* C09: an install selects the new patch; falling back from (rolling back, failing) ANOTHER number keeps the selection;
   without outside damage the selection always has its artifact, so a query answers it and changes nothing *)
Theorem C09_abstract_install_selects : forall a n, a_sel (a_install a n) = Some n.
Proof. exact install_selects. Qed.
Print Assumptions C09_abstract_install_selects.
Theorem C09_abstract_other_number_keeps_selection :
  forall a x n, a_sel a = Some n -> x <> n -> a_sel (a_fall_back a x) = Some n.
Proof. exact fall_back_other_keeps_selection. Qed.
Print Assumptions C09_abstract_other_number_keeps_selection.
Theorem C09_abstract_query_is_the_selection : forall a, A_sel_has a -> a_query a = (a, a_sel a).
Proof. exact query_is_the_selection. Qed.
Print Assumptions C09_abstract_query_is_the_selection.
Theorem C09_abstract_selection_has_artifact_invariant :
  forall a, A_sel_has a ->
    (forall x, A_sel_has (a_fall_back a x)) /\ (forall l, A_sel_has (a_rollback a l)) /\ A_sel_has (a_start a) /\
    A_sel_has (a_success a) /\ A_sel_has (a_failure a) /\ (forall n, A_sel_has (a_install a n)).
Proof.
  intros a H.
  exact (conj (fun x => A_sel_has_fall_back a x H) (conj (fun l => A_sel_has_rollback l a H)
        (conj (A_sel_has_start a H) (conj (A_sel_has_success a H) (conj (A_sel_has_failure a H)
        (fun n => A_sel_has_install a n)))))).
Qed.
Print Assumptions C09_abstract_selection_has_artifact_invariant.

(* C02 on the abstract machine: a banned number is neither selected, nor last good, nor booting - an invariant of
   every transition (an install only happens for a number that is not banned) *)
Theorem C09_abstract_ban_invariant :
  forall a, A_ban a ->
    (forall x, A_ban (a_fall_back a x)) /\ (forall l, A_ban (a_rollback a l)) /\ A_ban (fst (a_query a)) /\
    A_ban (a_start a) /\ A_ban (a_success a) /\ A_ban (a_failure a) /\
    (forall n, ~ In n (a_ban a) -> A_ban (a_install a n)).
Proof.
  intros a H.
  exact (conj (fun x => A_ban_fall_back a x H) (conj (fun l => A_ban_rollback l a H) (conj (A_ban_query a H)
        (conj (A_ban_start a H) (conj (A_ban_success a H) (conj (A_ban_failure a H)
        (fun n Hn => A_ban_install a n H Hn))))))).
Qed.
Print Assumptions C09_abstract_ban_invariant.

(* C10 / C03: falling back from x removes x (not selected, artifact gone) and, if x was the selection, selects the last
   good patch when that is another number with its artifact, nothing otherwise *)
Theorem C09_abstract_fall_back_removes :
  forall a x, a_sel (a_fall_back a x) <> Some x /\ a_has (a_fall_back a x) x = false.
Proof. exact fall_back_removes. Qed.
Print Assumptions C09_abstract_fall_back_removes.
Theorem C09_abstract_fall_back_target :
  forall a x, a_sel a = Some x ->
    a_sel (a_fall_back a x) =
    match a_good a with Some g => if negb (N.eqb g x) && a_has a g then Some g else None | None => None end.
Proof. exact a_fall_back_target. Qed.
Print Assumptions C09_abstract_fall_back_target.

(* C18: launch start makes the handed-out patch current, success keeps it, a fall back from any number leaves what is
   running alone *)
Theorem C09_abstract_current :
  (forall a n, A_sel_has a -> a_sel a = Some n -> SpecProps.a_current (a_start a) = Some n) /\
  (forall a b, a_boot a = Some b -> SpecProps.a_current (a_success a) = Some b) /\
  (forall a x, a_boot (a_fall_back a x) = a_boot a).
Proof. exact (conj start_sets_current (conj success_keeps_current a_fall_back_boot)). Qed.
Print Assumptions C09_abstract_current.
