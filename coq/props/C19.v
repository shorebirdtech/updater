(* C19 — superseded, failed and rolled-back artifacts are reclaimed. *)
From UV Require Import Base Model Inv Calls Frames2.

Theorem C19_after_success :
  forall (c : cfg) (d : disk) (b : meta) (k : N),
    cb (load_p (norm c d)) = Some b -> N.lt k (m_num b) ->
    arts (fst (cs_success c d)) k <> None -> numeq (nb (load_p (fst (cs_success c d)))) k = true.
Proof. exact success_reclaims. Qed.
Print Assumptions C19_after_success.

Theorem C19_failed :
  forall sha sigok (c : cfg) (d : disk) (b : meta),
    cb (load_p (norm c d)) = Some b -> arts (fst (cs_failure sha sigok c d)) (m_num b) = None.
Proof. intros. rewrite Sections.cs_failure_disk. apply fail_disk_reclaims. assumption. Qed.
Print Assumptions C19_failed.

Theorem C19_crash_detected :
  forall sha sigok (c : cfg) (d : disk) (b : meta),
    cb (load_p (norm c d)) = Some b -> arts (cs_init_recover sha sigok c d) (m_num b) = None.
Proof. intros. rewrite Sections.cs_init_recover_disk. apply fail_disk_reclaims. assumption. Qed.
Print Assumptions C19_crash_detected.

Theorem C19_rolled_back :
  forall sha sigok (c : cfg) (d : disk) (l : list N) (x : N),
    In x l -> arts (cs_rollback sha sigok c d l) x = None.
Proof. intros sha sigok c d l x H. exact (proj1 (cs_rollback_makes_goneD sha sigok c d l x H)). Qed.
Print Assumptions C19_rolled_back.

(* a never-booted pending patch replaced by another install while an earlier patch is last good is
   removed at that install, and the last good patch's artifact is untouched *)
Theorem C19_superseded :
  forall (c : cfg) (d : disk) (p : patch) (out : bytes) (x l : meta),
    stable (c_rel c) d -> ~ In (p_num p) (bad (load_p d)) ->
    nb (load_p d) = Some x -> lb (load_p d) = Some l ->
    m_num l <> m_num x -> m_num x <> p_num p -> numeq (cb (load_p d)) (m_num x) = false ->
    arts (fst (cs_install c d p out)) (m_num x) = None /\
    arts (fst (cs_install c d p out)) (m_num l) =
      (if N.eqb (m_num l) (p_num p) then Some (AFile out) else arts d (m_num l)).
Proof. exact install_reclaims_superseded. Qed.
Print Assumptions C19_superseded.

Theorem C19_release_change :
  forall (c : cfg) (d : disk) (k : N), other_release (c_rel c) d -> arts (norm c d) k = None.
Proof. intros c d k H. rewrite norm_other by auto. reflexivity. Qed.
Print Assumptions C19_release_change.
