(* C04 — process death or an I/O error at any point leaves a safe state. *)
From UV Require Import Base Model Sections Inv Handout Fault FaultProofs.

(* First half, calls of the running release.  For every good state of release r, every call o (and
   the restart's own init), every k and every partial-deletion choice sub: the disk left by a process
   death before the k-th mutating system call satisfies SB (if the next launch keeps the state at
   all, a parsable patches_state.json satisfies I-ban and still bans everything banned before) ... *)
Theorem C04_crash_states :
  forall sha sigok zdec base (c : cfg) (d0 : disk) (o : op) (k : nat) (sub : N -> N),
    stable (c_rel c) d0 -> IbanD d0 ->
    let d' := disk_of (callM sha sigok zdec base c o (CrashAt k sub) 0%nat d0) in
    let d'' := disk_of (initM sha sigok c (CrashAt k sub) 0%nat d0) in
    SB (c_rel c) (bad (load_p d0)) d' /\ SB (c_rel c) (bad (load_p d0)) d''.
Proof.
  intros sha sigok zdec base c d0 o k sub St Ib.
  assert (HI : IB (c_rel c) (bad (load_p d0)) d0) by (split; [exact St|split; [exact Ib|apply incl_refl]]).
  destruct (crash_keeps_good sha sigok zdec base (c_rel c) (bad (load_p d0)) c eq_refl o) as [Hc Hi].
  (* a plan that is a death is allowed whatever [af]: okpl false (CrashAt k sub) is True *)
  split; [exact (pres_disk (IB_SB _ _) (CrashAt k sub) _ _ Hc Logic.I HI)|exact (pres_disk (IB_SB _ _) (CrashAt k sub) _ _ Hi Logic.I HI)].
Qed.
Print Assumptions C04_crash_states.

(* ... and from ANY such disk the next launch (init with crash detection, then the query) selects no
   patch, or one that is intact (exists, recorded size, signed if a key is configured), was not
   banned before the interrupted call, and whose own launch was not in progress *)
Theorem C04_next_launch_safe :
  forall sha sigok (c : cfg) (bad0 : list N) (d : disk),
    SB (c_rel c) bad0 d ->
    match snd (next_launch sha sigok c d) with
    | None => True
    | Some n =>
        intact sha sigok (c_key c) (fst (next_launch sha sigok c d)) n /\ ~ In n bad0 /\
        (forall m, cb (load_p (norm c d)) = Some m -> m_num m <> n)
    end.
Proof. exact next_launch_safe. Qed.
Print Assumptions C04_next_launch_safe.

(* Second half.  Under ANY plan — death at any step or any single failing system call with execution
   continuing — of any call from any state whose patches_state.json satisfies I-ban: the call returns
   (the model is total), and whatever is selected afterwards, in this process and at the next launch,
   is intact and not on the ban list *)
Theorem C04_fault_safe :
  forall sha sigok zdec base (c : cfg) (d0 : disk) (o : op) (pl : plan),
    PJI d0 ->
    let d' := disk_of (callM sha sigok zdec base c o pl 0%nat d0) in
    IbanD d' /\
    (forall d2 n, cs_next sha sigok c d' = (d2, Some n) ->
                  intact sha sigok (c_key c) d2 n /\ ~ In n (bad (load_p d2))) /\
    (forall d2 n, next_launch sha sigok c d' = (d2, Some n) ->
                  intact sha sigok (c_key c) d2 n /\ ~ In n (bad (load_p d2))).
Proof.
  intros sha sigok zdec base c d0 o pl H0. cbv zeta. set (d' := disk_of _).
  assert (Ib : IbanD d').
  { apply PJI_IbanD. destruct (any_fault_keeps_pji sha sigok zdec base c o) as [Hc _].
    exact (pres_disk (fun _ H => H) pl _ _ Hc (okpl_true pl) H0). }
  split; [exact Ib|]. split; intros d2 n; apply selected_ok; [exact Ib|].
  rewrite cs_init_recover_disk. apply (sec_IbanD sha sigok c (SFail MsgInit)), Ib.
Qed.
Print Assumptions C04_fault_safe.

(* First launch of another release (or with an unreadable state.json), under ANY plan: neither this
   process nor the next launch hands out a patch — no state of the old release is ever selectable *)
Theorem C04_release_change_safe :
  forall sha sigok (c : cfg) (d : disk) (pl : plan),
    ~ stable (c_rel c) d ->
    let d' := disk_of (initM sha sigok c pl 0%nat d) in
    snd (cs_next sha sigok c d') = None /\ snd (next_launch sha sigok c d') = None.
Proof. exact release_change_safe. Qed.
Print Assumptions C04_release_change_safe.

(* The fault-monad model run without faults IS the pure model of the lifecycle theorems (and of the
   correspondence runs): every call, and the first call of a process, leave exactly the pure disk *)
From UV Require Import FaultRefine.
Theorem C04_nofault_is_pure_model :
  forall sha sigok zdec base (c : cfg) (o : op) (d : disk),
    (forall r y p, o <> OInit r y p) -> o <> OKill -> (forall g, o <> ODamage g) ->
    NFd (callM sha sigok zdec base c o) d
        (w_disk (fst (fst (step sha sigok zdec base {| w_disk := d; w_cfg := Some c |} o)))).
Proof. exact call_refines. Qed.
Print Assumptions C04_nofault_is_pure_model.

Theorem C04_nofault_init_is_pure_model :
  forall sha sigok (c : cfg) (d : disk),
    NFd (initM sha sigok c) d (cs_init_recover sha sigok c d).
Proof. exact init_refines. Qed.
Print Assumptions C04_nofault_init_is_pure_model.

(* JsonTorn.v: Fault.write_pj leaves JGarbage when the process dies or a write fails in the middle of disk_io::write.
   That is a theorem about the model's text-level reader: if the complete text reads as a state, begins with the opening brace and
   ends with the closing one (what to_writer_pretty writes; the harness checks that shape on every file the library
   writes), then every strict prefix of it is garbage for the reader. *)
From UV Require Import Json JsonText JsonTextProofs JsonState JsonStateProofs JsonTorn JsonStateExist JsonWrite JsonWriteProofs.
Theorem C04_torn_state_file_is_garbage :
  forall (P p r : bytes) s,
    pstate_of_body P = Some s -> P = (p ++ r)%list -> r <> [] ->
    (exists x, skip_ws P = (123 :: x)%N) -> (exists y, P = (y ++ [125%N])%list) ->
    pj_of_file p = JGarbage.
Proof. exact torn_state_file_is_garbage. Qed.
Print Assumptions C04_torn_state_file_is_garbage.

(* (and such texts exist for every state the model can hold) *)
Theorem C04_every_state_has_such_a_file :
  forall s, pstate_in_range s -> pstate_utf8 s ->
    exists P, pstate_of_body P = Some s /\ (exists x, skip_ws P = (123 :: x)%N) /\ (exists y, P = (y ++ [125%N])%list).
Proof. exact state_has_a_file. Qed.
Print Assumptions C04_every_state_has_such_a_file.

(* The same for the other state file: with state.json read at the text level by the model (JsonSj.sj_of_file: the derived
   readers of SerializedState, of PatchEvent for every queued event, and EventType's own), a save of state.json that is
   cut short anywhere - the process dies, or a write fails, inside disk_io::write - leaves a file the next load cannot
   read, which load_or_new_on_error answers by discarding everything. *)
From UV Require Import JsonSj JsonSjProofs JsonSjWidth.
Theorem C04_torn_state_json_is_garbage :
  forall (P p r : bytes) s,
    sj_of_file P = JOk s -> P = (p ++ r)%list -> r <> [] ->
    (exists x, skip_ws P = (123 :: x)%N) -> (exists y, P = (y ++ [125%N])%list) ->
    sj_of_file p = JGarbage.
Proof. exact torn_state_json. Qed.
Print Assumptions C04_torn_state_json_is_garbage.

(* the vector of queued events is read by a reader with room for as many events as the text has bytes; ANY room that is
   at least that reads the same thing: the model's reader is the reader with unbounded room (serde's Vec visitor) *)
Theorem C04_state_json_reader_room_is_irrelevant :
  forall (n : nat) (l : bytes), (List.length l <= n)%nat -> sj_of_file_n n l = sj_of_file l.
Proof. exact sj_of_file_width. Qed.
Print Assumptions C04_state_json_reader_room_is_irrelevant.

(* what is read is exactly a sentence of the state file's grammar whose tree the derived readers accept - nothing else
   (not JSON, a missing or repeated member, a vector that is not an array, an unknown event type) is a readable state *)
Theorem C04_state_json_language :
  forall n l s,
    fstate_of_body_n n l = Some s <->
    exists w b w' t, WS w /\ GS (sstate_schema n) t b /\ WS w' /\ l = (w ++ b ++ w')%list /\ fstate_of_json t = Some s.
Proof. exact fstate_of_body_iff. Qed.
Print Assumptions C04_state_json_language.

(* (and such texts exist for every release version and every queue the model can hold: the theorem above is not vacuous) *)
From UV Require Import JsonTextExist JsonSjExist.
Theorem C04_every_state_json_has_such_a_file :
  forall r q,
    utf8_valid (bytes_of r) = true -> Forall fevent_in_range q -> Forall fevent_utf8 q ->
    exists P, sj_of_file P = JOk {| rel := r; evq := map event_of_fevent q |} /\
              (exists x, skip_ws P = (123 :: x)%N) /\ (exists y, P = (y ++ [125%N])%list).
Proof. exact sj_state_has_a_file. Qed.
Print Assumptions C04_every_state_json_has_such_a_file.

(* JsonWrite.v (serde_json::to_writer_pretty of the derived Serialize, as a function):
   [w_pstate s] / [w_fstate r q] are the texts disk_io::write produces; the harness checks on every run that each state
   file the library wrote is a fixed point of read-then-write (pj_canonical / sj_canonical).  Cut anywhere, they are
   unreadable: the shape of the text is proved here, not assumed. *)
Theorem C04_torn_written_patches_state_is_garbage :
  forall s p r, pstate_in_range s -> pstate_utf8 s -> w_pstate s = (p ++ r)%list -> r <> [] -> pj_of_file p = JGarbage.
Proof. exact torn_written_pstate. Qed.
Print Assumptions C04_torn_written_patches_state_is_garbage.

Theorem C04_torn_written_state_json_is_garbage :
  forall rl q p r,
    utf8_valid (bytes_of rl) = true -> Forall fevent_in_range q -> Forall fevent_utf8 q ->
    w_fstate rl q = (p ++ r)%list -> r <> [] -> sj_of_file p = JGarbage.
Proof. exact torn_written_sstate. Qed.
Print Assumptions C04_torn_written_state_json_is_garbage.
