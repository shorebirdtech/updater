(* C06 — network failure or malformed traffic never harms what is installed (logic half; the
   transport half is exercised by the harness, see DESIGN.md). *)
From UV Require Import Base Model Inv Calls.

(* the patch check fails (no answer, or one the library cannot read): an error status, the queued events and the
   check request sent, and on disk only the event queue flushed *)
Theorem C06_check_failure_frame :
  forall sha sigok zdec base (c : cfg) (d : disk) ch dl,
    do_update sha sigok zdec base c d ch None dl =
    (cs_clear_events c (norm c d), UError,
     map NEvent (firstn 3 (evq (load_s c (norm c d)))) ++ [NCheck (mk_request c ch)]).
Proof. exact check_failure_frame. Qed.
Print Assumptions C06_check_failure_frame.

(* an answer that offers a patch without naming it: an error status, and on disk only the rollbacks it lists *)
Theorem C06_contradictory_response_frame :
  forall sha sigok zdec base (c : cfg) (d : disk) ch (rs : resp) dl,
    r_avail rs = true -> r_patch rs = None ->
    fst (do_update sha sigok zdec base c d ch (Some rs) dl) = (after_rollbacks sha sigok c d rs, UError).
Proof. exact contradictory_response_frame. Qed.
Print Assumptions C06_contradictory_response_frame.

(* the download fails: no installed update is reported, and the disk is the one the offer's own install test leaves
   after the listed rollbacks *)
Theorem C06_download_failure_frame :
  forall sha sigok zdec base (c : cfg) (d : disk) ch (rs : resp) (p : patch),
    r_avail rs = true -> r_patch rs = Some p ->
    fst (fst (do_update sha sigok zdec base c d ch (Some rs) None)) =
      fst (should_install sha sigok c (after_rollbacks sha sigok c d rs) (p_num p)) /\
    snd (fst (do_update sha sigok zdec base c d ch (Some rs) None)) <> UInstalled.
Proof. exact download_failure_frame. Qed.
Print Assumptions C06_download_failure_frame.

(* "unchanged": from a settled state of the running release, an update whose answer lists no rollback and that does
   not report an installed update leaves patches_state.json and every artifact as they are *)
Theorem C06_failed_update_unchanged :
  forall sha sigok zdec base (c : cfg) (d : disk) ch (rs : resp) dl,
    stable (c_rel c) d -> settled sha sigok (c_key c) d -> r_rb rs = None ->
    snd (fst (do_update sha sigok zdec base c d ch (Some rs) dl)) <> UInstalled ->
    let d' := fst (fst (do_update sha sigok zdec base c d ch (Some rs) dl)) in
    load_p d' = load_p d /\ arts d' = arts d.
Proof. exact failed_update_unchanged. Qed.
Print Assumptions C06_failed_update_unchanged.

(* "a later update against a healthy server succeeds": from any such state, an offer that is neither banned nor
   already next, with a download that inflates to the announced content, is installed *)
Theorem C06_then_healthy_installs :
  forall sha sigok zdec base (c : cfg) (d : disk) ch (rs : resp) (p : patch) bdl out,
    stable (c_rel c) d -> settled sha sigok (c_key c) d ->
    r_rb rs = None -> r_avail rs = true -> r_patch rs = Some p ->
    ~ In (p_num p) (bad (load_p d)) -> onum (nb (load_p d)) <> Some (p_num p) ->
    inflate zdec base bdl = Some out -> hash_ok sha out (p_hash p) = true ->
    snd (fst (do_update sha sigok zdec base c d ch (Some rs) (Some bdl))) = UInstalled.
Proof. exact healthy_update_installs. Qed.
Print Assumptions C06_then_healthy_installs.

(* Json.v: serde's derived Deserialize for PatchCheckResponse / Patch, over the body's JSON tree *)
From UV Require Import Json JsonProofs.

(* no answer, an answer whose body is not JSON ([None] tree), or a tree; JsonText.resp_of_body below does the same
   from the bytes of the body *)
Definition response_read (body : option (option json)) : option resp :=
  match body with
  | Some (Some j) => resp_of_json j
  | _ => None
  end.

(* every body the library cannot read as a response — not an object/array, a required field missing, a
   wrong type anywhere in a known field, a number that is not a usize, a known field given twice — is a
   failed patch check: error status, no download, nothing changed but the flushed event queue *)
Theorem C06_unreadable_body_is_failed_check :
  forall sha sigok zdec base (c : cfg) (d : disk) ch dl (body : option (option json)),
    response_read body = None ->
    do_update sha sigok zdec base c d ch (response_read body) dl =
    (cs_clear_events c (norm c d), UError,
     map NEvent (firstn 3 (evq (load_s c (norm c d)))) ++ [NCheck (mk_request c ch)]).
Proof. intros. rewrite H. apply check_failure_frame. Qed.
Print Assumptions C06_unreadable_body_is_failed_check.

Theorem C06_body_missing_required_field :
  forall l, (forall v, ~ In ("patch_available"%string, v) l) -> resp_of_json (JObj l) = None.
Proof. exact missing_patch_available_rejected. Qed.
Print Assumptions C06_body_missing_required_field.

Theorem C06_body_duplicate_field :
  forall l1 k v1 l2 v2 l3, known k = true ->
    resp_of_json (JObj (l1 ++ (k, v1) :: l2 ++ (k, v2) :: l3)) = None.
Proof. exact duplicate_field_rejected. Qed.
Print Assumptions C06_body_duplicate_field.

Theorem C06_body_unknown_field_ignored :
  forall l1 k v l2, known k = false ->
    resp_of_json (JObj (l1 ++ (k, v) :: l2)) = resp_of_json (JObj (l1 ++ l2)).
Proof. exact unknown_field_ignored. Qed.
Print Assumptions C06_body_unknown_field_ignored.

Theorem C06_body_patch_numbers_are_usize :
  forall j n, as_usize j = Some n <-> j = JNum (JInt false n) /\ n < two64.
Proof. exact usize_exactly. Qed.
Print Assumptions C06_body_patch_numbers_are_usize.

(* what a well-behaved server serialises is read back exactly *)
Theorem C06_body_roundtrip :
  forall r, resp_in_range r -> resp_of_json (json_of_resp r) = Some r.
Proof. exact resp_roundtrip. Qed.
Print Assumptions C06_body_roundtrip.

(* non-vacuity: a contradictory body (patch_available without patch) is READ, and rejected later by
   update (C06_contradictory_response_frame); a float patch number is not read at all *)
Example C06_body_examples :
  resp_of_json (JObj [("patch_available"%string, JBool true)]) =
    Some {| r_avail := true; r_patch := None; r_rb := None |} /\
  resp_of_json (JObj [("patch_available"%string, JBool true);
                      ("patch"%string, JObj [("number"%string, JNum JFloat); ("hash"%string, JStr "");
                                             ("download_url"%string, JStr "")])]) = None /\
  resp_of_json (JArr [JBool false; JNull; JArr [JNum (JInt false 3)]]) =
    Some {| r_avail := false; r_patch := None; r_rb := Some [3] |}.
Proof. vm_compute. repeat split. Qed.

From UV Require Import JsonText JsonTextProofs JsonTextSound JsonTextExist JsonTorn JsonWriteProofs.

(* the strict reader (serde_json's parse at a typed position) reads EVERY sentence of the JSON grammar - any white
   space, any escape form including surrogate pairs, any digit string - and returns the tree it denotes *)
Theorem C06_text_strict_reader_reads_every_sentence :
  forall t b, G t b -> forall w rest fuel, WS w -> ok_rest rest -> (List.length b < fuel)%nat ->
    parse_value fuel (w ++ b ++ rest) = Some (t, rest).
Proof. exact strict_reader_reads_every_sentence. Qed.
Print Assumptions C06_text_strict_reader_reads_every_sentence.

(* ... and nothing else: a body is accepted by the strict reader exactly when it is white space, one sentence of the
   grammar, white space - anything that is not JSON is rejected *)
Theorem C06_text_strict_reader_language :
  forall l t, parse_json l = Some t <-> exists w b w', WS w /\ G t b /\ WS w' /\ l = w ++ b ++ w'.
Proof. exact parse_json_iff. Qed.
Print Assumptions C06_text_strict_reader_language.

(* the scanner used for the value of an unknown key accepts every sentence of the same grammar with UNCHECKED string
   contents (lone surrogates, ill-formed UTF-8), at any nesting depth *)
Theorem C06_text_scanner_skips_every_sentence :
  forall b, L b -> forall w rest fuel, WS w -> ok_rest rest -> (List.length b < fuel)%nat ->
    ignore_value fuel (w ++ b ++ rest) = Some rest.
Proof. exact scanner_skips_every_sentence. Qed.
Print Assumptions C06_text_scanner_skips_every_sentence.

(* a whole response body: members in any order, white space anywhere, known members read by their type (the patch
   object by its own schema), unknown members holding any lenient sentence: what the library makes of the BYTES is
   what Json.resp_of_json makes of the tree they denote *)
Theorem C06_text_body_is_its_tree :
  forall t b w w', GS resp_schema t b -> WS w -> WS w' -> resp_of_body (w ++ b ++ w') = resp_of_json t.
Proof. exact (body_reader_spelled resp_schema resp_of_json). Qed.
Print Assumptions C06_text_body_is_its_tree.

(* ... and ONLY those: the library reads a patch-check answer out of a body exactly when the body is white space, a
   sentence of the response schema, white space, and the tree it denotes is one resp_of_json accepts.  Every other
   body - not JSON, JSON with a defect where the struct reads, bytes after the value, a byte-order mark - is a failed
   check (with C06_unreadable_body_is_failed_check: an error status and an untouched state) *)
Theorem C06_text_accepted_bodies_are_exactly_the_schema_sentences :
  forall l r, resp_of_body l = Some r <->
    exists w b w' t, WS w /\ GS resp_schema t b /\ WS w' /\ l = w ++ b ++ w' /\ resp_of_json t = Some r.
Proof. exact (body_reader_iff resp_schema resp_of_json). Qed.
Print Assumptions C06_text_accepted_bodies_are_exactly_the_schema_sentences.

(* ... so a well-formed answer is read back exactly, however it is spelled *)
Theorem C06_text_wellformed_answer_read_exactly :
  forall r b w w', resp_in_range r -> GS resp_schema (json_of_resp r) b -> WS w -> WS w' ->
    resp_of_body (w ++ b ++ w') = Some r.
Proof.
  intros r b w w' Hr g Hw Hw'. rewrite <- (resp_roundtrip r Hr). exact (body_reader_spelled resp_schema resp_of_json _ b w w' g Hw Hw').
Qed.
Print Assumptions C06_text_wellformed_answer_read_exactly.

(* (the grammar is inhabited: every in-range answer whose strings are text HAS a body the library reads as that answer) *)
Theorem C06_text_every_answer_has_a_body :
  forall r, resp_in_range r -> resp_utf8 r -> exists b, resp_of_body b = Some r.
Proof. exact every_answer_has_a_body. Qed.
Print Assumptions C06_text_every_answer_has_a_body.

(* ... and an unknown member, whatever lenient JSON it holds, changes nothing *)
Theorem C06_text_unknown_member_changes_nothing :
  forall l1 k l2 b w w', known k = false -> GS resp_schema (JObj (l1 ++ (k, JNull) :: l2)) b -> WS w -> WS w' ->
    resp_of_body (w ++ b ++ w') = resp_of_json (JObj (l1 ++ l2)).
Proof.
  intros l1 k l2 b w w' Hk g Hw Hw'. rewrite <- (unknown_field_ignored l1 k JNull l2 Hk).
  exact (body_reader_spelled resp_schema resp_of_json _ b w w' g Hw Hw').
Qed.
Print Assumptions C06_text_unknown_member_changes_nothing.

(* the places where the two readers differ, and a few non-sentences, evaluated (tests of the definitions, not theorems
   about all inputs): lone surrogate / ill-formed UTF-8 under an unknown key are fine, under a known key or in a key of
   the struct they are errors; trailing bytes, a byte-order mark, a trailing comma are errors.
   [bs] is JsonTextExist.bytes_of under a short name *)
Definition bs (s : string) : bytes := map N_of_ascii (list_ascii_of_string s).
Example C06_text_examples :
  resp_of_body (bs "{""patch_available"":false,""x"":""\ud800""}") = Some {| r_avail := false; r_patch := None; r_rb := None |} /\
  resp_of_body (bs "{""patch_available"":false,""x"":[[[{""k"":""" ++ [255] ++ bs """}]]]}") = Some {| r_avail := false; r_patch := None; r_rb := None |} /\
  resp_of_body (bs "{""patch_available"":false,""\ud800"":1}") = None /\
  resp_of_body (bs "{""patch_available"":true,""patch"":{""number"":2,""hash"":""\ud800"",""download_url"":""u""}}") = None /\
  resp_of_body (bs " { ""patch"" : { ""download_url"":""u"", ""hash"" : ""a😀"" , ""number"" : 2 } , ""patch_available"" : true } ")
    = Some {| r_avail := true; r_patch := Some {| p_num := 2; p_hash := str_of (97 :: utf8_enc 128512); p_url := "u"; p_sig := None |}; r_rb := None |} /\
  resp_of_body (bs "{""patch_available"":false} x") = None /\
  resp_of_body ([239; 187; 191] ++ bs "{""patch_available"":false}") = None /\
  resp_of_body (bs "{""patch_available"":false,}") = None /\
  resp_of_body (bs "{""patch_available"":false,""rolled_back_patch_numbers"":[1,02]}") = None /\
  resp_of_body [] = None.
Proof. vm_compute. repeat split. Qed.

(* a body cut short anywhere - the connection closed early, a Content-Length that lies - is a failed check: no strict
   prefix of an accepted object body is accepted *)

Theorem C06_text_truncated_body_is_rejected :
  forall (P p r : bytes) a,
    resp_of_body P = Some a -> P = (p ++ r)%list -> r <> [] ->
    (exists x, skip_ws P = (123 :: x)%N) -> (exists y, P = (y ++ [125%N])%list) ->
    resp_of_body p = None.
Proof. intros P p r a. exact (body_reader_torn _ resp_of_json P p r a). Qed.
Print Assumptions C06_text_truncated_body_is_rejected.
