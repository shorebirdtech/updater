(* C12 — calls never wait on the network; updates never pile up or deadlock (structural half). *)
From UV Require Import Base Model Blocks.

(* For every call, from every world (initialised or not) and with any server behaviour, the calling
   thread's action trace is well formed: the config mutex is never re-entered, every network
   callback runs with the config mutex released, the update mutex is tried only with the config
   mutex released, and both are released when the call returns.  (wf_go, Blocks.v) *)
Theorem C12_call_trace_wf :
  forall sha sigok zdec base (w : world) (o : op),
    wf_go 0 false (world_actions sha sigok zdec base w o) = Some (0%nat, false).
Proof. exact world_actions_wf. Qed.
Print Assumptions C12_call_trace_wf.

(* a second update requested while one is running returns at once with the error status: it takes
   no lock, touches no state and performs no network I/O *)
Theorem C12_second_update_refused :
  forall sha sigok zdec base (c : cfg) (i : nat) (t : thread) (d : disk) (j : nat),
    is_try (t_stage t) = true ->
    thread_step_b sha sigok zdec base c i t d (Some j) = (refuse_update t, d, [], Some j) /\
    exists rest, t_outs (refuse_update t) = t_outs t ++ [RStatus (-1)] /\ rest = t_todo t.
Proof. exact second_update_refused. Qed.
Print Assumptions C12_second_update_refused.

(* progress: whichever unfinished thread is scheduled can take its step (the step function is
   total) and strictly reduces its remaining work; a thread holds the config mutex only inside one
   block and asks for no other lock there, so no waiting cycle exists and every fair schedule ends *)
Theorem C12_step_decreases_work :
  forall sha sigok zdec base (c : cfg) (i : nat) (t : thread) (d : disk) (busy : option nat),
    thread_done t = false ->
    (work (fst (fst (fst (thread_step_b sha sigok zdec base c i t d busy)))) < work t)%nat.
Proof. exact step_decreases_work. Qed.
Print Assumptions C12_step_decreases_work.

(* each block advances its call: no call loops inside the library *)
Theorem C12_block_advances :
  forall sha sigok zdec base (c : cfg) (g : stage) (d : disk),
    g <> GDone (match g with GDone x => x | _ => RUnit end) ->
    (rank (fst (fst (block sha sigok zdec base c g d))) < rank g)%nat.
Proof. exact block_rank. Qed.
Print Assumptions C12_block_advances.

(* Static half, regenerated from library/src on every run (gen/LockSites.v: every call in every
   non-test function, with whether it sits lexically inside a with_config / with_state / with_mut_state
   closure, inside the with_updater_thread_lock closure, inside a thread::spawn closure).
   For EVERY call made inside a config-lock closure by the thread holding the lock: it is not a network
   callback and cannot reach one through any chain of calls on that thread; it does not take the config
   lock again and cannot reach a function that does; it does not take the update lock and cannot reach a
   function that does.  This covers code paths no test or schedule exercises. *)
From UV Require Import LockOrder.
From UVG Require Import LockSites.
Theorem C12_static_lock_discipline :
  forall s, In s gen_calls -> cs_cfg s = true -> cs_spawn s = false ->
    (is_net (cs_callee s) = false /\ ~ Reaches gen_calls is_net (cs_callee s)) /\
    (mem (cs_callee s) lockers = false /\ ~ Reaches gen_calls (fun c => mem c lockers) (cs_callee s)) /\
    (String.eqb upd_locker (cs_callee s) = false /\ ~ Reaches gen_calls (String.eqb upd_locker) (cs_callee s)).
Proof. apply (lock_discipline_spec gen_calls gen_fns). vm_compute. reflexivity. Qed.
Print Assumptions C12_static_lock_discipline.

(* non-vacuity: the table does contain calls under the lock, network calls and lock acquisitions *)
Example C12_static_nonvacuous :
  existsb cs_cfg gen_calls = true /\ existsb (fun s => is_net (cs_callee s)) gen_calls = true /\
  existsb (fun s => mem (cs_callee s) lockers) gen_calls = true /\
  existsb (fun s => String.eqb upd_locker (cs_callee s)) gen_calls = true.
Proof. vm_compute. repeat split. Qed.

(* The two mutexes made explicit (LockSem.v): any number of threads, any calls, any schedule.
   Each thread issues any sequence of calls, each call from whatever world it finds; its lock/network actions
   are those the model computes (the traces compared with the real library's hook trace on every run).  The
   config mutex blocks, the update mutex is only tried.  After ANY schedule prefix:
   (1) if some thread still has work, some thread can take a step - no deadlock, whatever the order of calls;
   (2) the remaining work can be completed in at most [sys_work] further steps - every step consumes an action,
       so no schedule runs for ever and nobody waits behind a thread that is itself waiting. *)
From UV Require Import LockSem LockSemProofs LockSemLink.
Theorem C12_no_deadlock_any_schedule :
  forall sha sigok zdec base (threads : list (list (world * op))) (order : list nat),
    let s := run_sched (system_of sha sigok zdec base threads) order in
    ((exists i t, nth_error (LockSem.threads s) i = Some t /\ th_done t = false) ->
     exists i, sys_step s i <> None) /\
    (exists rest, (List.length rest <= sys_work s)%nat /\ all_done (run_sched s rest)).
Proof. exact no_deadlock_any_schedule. Qed.
Print Assumptions C12_no_deadlock_any_schedule.

(* a try-lock on the update mutex never waits: busy or not, the step is enabled and the caller moves on at
   once - into the update body if it got the mutex, past it ("already in progress") if not *)
Theorem C12_try_never_blocks :
  forall i t body r co uo,
    inside t = None -> rest t = IUpd body :: r ->
    exists t', th_step i t co uo = Some (t', co, match uo with None => Some i | Some k => Some k end) /\
               rest t' = r /\
               inside t' = match uo with None => Some body | Some _ => None end.
Proof. exact try_never_blocks. Qed.
Print Assumptions C12_try_never_blocks.

(* non-vacuity: an update racing a query and a launch report; the query thread wants the config mutex while the
   updater holds it and is passed over (a skipped pick), then everything completes *)
Example C12_lock_example :
  let upd := [IUpd [AAcq; ARel; ANet; AAcq; ARel]] in
  let qry := [IAct AAcq; IAct ARel] in
  let s1 := run_sched (init_sys [upd; qry; upd]) [0; 0; 1; 2]%nat in
  cfg_owner s1 = Some 0%nat /\ upd_owner s1 = Some 0%nat /\
  sys_step s1 1%nat = None /\                      (* the query waits for the config mutex ... *)
  sys_step s1 0%nat <> None /\                     (* ... whose holder can go on *)
  forallb th_done (LockSem.threads (run_sched s1 [0; 1; 1; 0; 0; 0; 0; 2]%nat)) = true.
Proof. cbv zeta. vm_compute. repeat split; discriminate. Qed.
