(* C07 — with a signing key, only correctly signed content boots. *)
From UV Require Import Base Model Handout Calls.

(* a reported patch carries a signature that verifies, under the configured key, over the SHA-256 of
   the artifact's CURRENT bytes (so same-size tampering is caught) *)
Theorem C07_reported_is_signed :
  forall sha sigok zdec base (w : world) (o : op) (w' : world) (x : out) (log : list netobs) (n : N),
    step sha sigok zdec base w o = (w', x, log) -> reports o x n ->
    exists c, w_cfg w' = Some c /\
      forall k, c_key c = Some k ->
        exists m b s, nb (load_p (w_disk w')) = Some m /\ m_num m = n /\
                      arts (w_disk w') n = Some (AFile b) /\ m_sig m = Some s /\
                      sigok k (hex_of_bytes (sha b)) s = true.
Proof.
  intros sha sigok zdec base w o w' x log n H1 H2.
  destruct (step_handout sha sigok zdec base w o w' x log n H1 H2) as [c [Hc (m & b & A & B & C & D & E)]].
  exists c. split; auto. intros k Hk. destruct (E k Hk) as [s [S1 S2]]. exists m, b, s. auto.
Qed.
Print Assumptions C07_reported_is_signed.

(* the fallback taken for a signature failure is literally the one for any invalid patch *)
Theorem C07_fallback_same :
  forall sha sigok (c : cfg) (d : disk) (m : meta),
    nb (load_p (norm c d)) = Some m ->
    validate sha sigok (c_key c) (norm c d) m = false ->
    snd (cs_next sha sigok c d) <> Some (m_num m) /\
    snd (cs_next sha sigok c d) =
      onum (match lb (load_p (norm c d)) with
            | Some l => if negb (N.eqb (m_num l) (m_num m)) &&
                           validate sha sigok (c_key c) (del_art (norm c d) (m_num m)) l
                        then Some l else None
            | None => None
            end).
Proof. exact cs_next_invalid_not_reported. Qed.
Print Assumptions C07_fallback_same.

(* a key under which nothing verifies (e.g. not base64 / not a key) rejects every patch *)
Theorem C07_bad_key_rejects :
  forall sha sigok (c : cfg) (d : disk) (k : string),
    c_key c = Some k -> (forall m s, sigok k m s = false) -> snd (cs_next sha sigok c d) = None.
Proof. exact bad_key_rejects. Qed.
Print Assumptions C07_bad_key_rejects.

(* Signing.v: with the oracle narrowed to the RSA verifier on BYTES, "signature not base64" and "unparsable key" are
   theorems about the model of cache/signing.rs, not assumptions about an opaque check. *)
From UV Require Import Signing.

Theorem C07_key_not_base64_rejects_every_patch :
  forall sha (rsa : bytes -> string -> bytes -> bool) (c : cfg) (d : disk) (k : string),
    c_key c = Some k -> b64_decode k = None ->
    snd (cs_next sha (check_signature rsa) c d) = None.
Proof.
  intros sha rsa c d k Hk Hd. apply (bad_key_rejects sha (check_signature rsa) c d k Hk).
  intros m s. apply key_not_base64_rejects_everything. exact Hd.
Qed.
Print Assumptions C07_key_not_base64_rejects_every_patch.

Theorem C07_signature_not_base64_rejected :
  forall (rsa : bytes -> string -> bytes -> bool) key msg sg,
    b64_decode sg = None -> check_signature rsa key msg sg = false.
Proof. exact signature_not_base64_rejected. Qed.
Print Assumptions C07_signature_not_base64_rejected.

Theorem C07_accepted_means_rsa_verified :
  forall (rsa : bytes -> string -> bytes -> bool) key msg sg,
    check_signature rsa key msg sg = true ->
    exists kb sb, b64_decode key = Some kb /\ b64_decode sg = Some sb /\ rsa kb msg sb = true.
Proof. exact accepted_means_verified. Qed.
Print Assumptions C07_accepted_means_rsa_verified.

(* the decoder accepts exactly what the same engine's encoder writes, and reads it back *)
Theorem C07_base64_roundtrip :
  forall l : bytes, wf_bytes l -> b64_decode (b64_encode l) = Some l.
Proof. exact b64_decode_encode. Qed.
Print Assumptions C07_base64_roundtrip.
