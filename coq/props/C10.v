(* C10 — a server rollback is honoured and sticks. *)
From UV Require Import Base Model PMLemmas Frames2 Frames3 Frames4.

(* right after a check / update whose response lists x (anywhere, any multiplicity, installed or
   not): x's artifact is gone and x is not the selection *)
Theorem C10_rollback_now_check :
  forall sha sigok (c : cfg) (d : disk) ch (rs : resp) (l : list N) (x : N),
    r_rb rs = Some l -> In x l -> goneD (fst (fst (do_check sha sigok c d ch (Some rs)))) x.
Proof. exact rollback_now_check. Qed.
Print Assumptions C10_rollback_now_check.

Theorem C10_rollback_now_update :
  forall sha sigok zdec base (c : cfg) (d : disk) ch (rs : resp) dl (l : list N) (x : N),
    r_rb rs = Some l -> In x l ->
    (snd (fst (do_update sha sigok zdec base c d ch (Some rs) dl)) = UInstalled -> ~ installs (Some rs) x) ->
    goneD (fst (fst (do_update sha sigok zdec base c d ch (Some rs) dl))) x.
Proof. exact rollback_now_update. Qed.
Print Assumptions C10_rollback_now_update.

(* if x was the selection, what is selected instead is the fallback target of C03 *)
Theorem C10_fallback_target :
  forall sha sigok (key : option string) (d : disk) (s : pstate) (b : N),
    numeq (nb s) b = true ->
    nb (snd (fall_back sha sigok key d s b)) =
    match lb s with
    | Some l => if negb (N.eqb (m_num l) b) && validate sha sigok key (del_art d b) l then Some l else None
    | None => None
    end.
Proof. exact fall_back_target. Qed.
Print Assumptions C10_fallback_target.

(* it sticks: every call other than an update that installs x (or outside damage re-creating it)
   leaves x gone — restarts, release changes, further rollbacks included *)
Theorem C10_gone_frame :
  forall sha sigok zdec base (w : world) (o : op) (x : N),
    goneD (w_disk w) x -> gone_undisturbed sha sigok zdec base x w o ->
    goneD (w_disk (stepw sha sigok zdec base w o)) x.
Proof. exact gone_frame. Qed.
Print Assumptions C10_gone_frame.

Theorem C10_sticks :
  forall sha sigok zdec base (x : N) (ops : list op) (w : world),
    goneD (w_disk w) x -> along sha sigok zdec base (gone_undisturbed sha sigok zdec base x) w ops ->
    goneD (w_disk (final sha sigok zdec base w ops)) x.
Proof. exact gone_persists. Qed.
Print Assumptions C10_sticks.

Theorem C10_gone_not_reported :
  forall sha sigok (c : cfg) (d : disk) (x : N), goneD d x -> snd (cs_next sha sigok c d) <> Some x.
Proof. exact gone_not_reported. Qed.
Print Assumptions C10_gone_not_reported.
