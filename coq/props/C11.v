(* C11 — lifecycle guarantees survive every interleaving with a concurrent update. *)
From UV Require Import Base Model Inv Handout Frames2 Blocks.

(* calls are programs of critical sections; run back to back they ARE the sequential calls *)
Theorem C11_update_is_its_blocks :
  forall sha sigok zdec base (c : cfg) (d : disk) ch r dl,
    run_stage sha sigok zdec base 9 c (GUpd ch r dl [] UTry) d [] =
    conv (do_update sha sigok zdec base c d ch r dl).
Proof. exact update_blocks_refine. Qed.
Print Assumptions C11_update_is_its_blocks.

Theorem C11_check_is_its_blocks :
  forall sha sigok zdec base (c : cfg) (d : disk) ch r,
    run_stage sha sigok zdec base 5 c (GChk ch r CCfg) d [] = conv_c (do_check sha sigok c d ch r).
Proof. exact check_blocks_refine. Qed.
Print Assumptions C11_check_is_its_blocks.

(* for EVERY number of threads, EVERY call sequences on them, EVERY schedule of their critical
   sections: the disk stays a state of the running release and I-ban holds throughout *)
Theorem C11_any_schedule_safe :
  forall sha sigok zdec base (c : cfg) (order : list nat) (ts : list thread) (d : disk) (busy : option nat) (log : list netobs),
    Safe (c_rel c) d -> Safe (c_rel c) (snd (fst (sched sha sigok zdec base c ts d busy order log))).
Proof. exact any_schedule_safe. Qed.
Print Assumptions C11_any_schedule_safe.

(* no interleaving lets an update install, or leave selected, a number whose failure was recorded *)
Theorem C11_banned_stays_banned :
  forall sha sigok zdec base (c : cfg) (n : N) (order : list nat) (ts : list thread) (d : disk) (busy : option nat) (log : list netobs),
    Safe (c_rel c) d -> In n (bad (load_p d)) ->
    let d' := snd (fst (sched sha sigok zdec base c ts d busy order log)) in
    In n (bad (load_p d')) /\ numeq (nb (load_p d')) n = false.
Proof. exact any_schedule_keeps_ban. Qed.
Print Assumptions C11_banned_stays_banned.

Theorem C11_install_block_respects_ban :
  forall sha sigok zdec base (c : cfg) ch r dl log (p : patch) (out : bytes) (d : disk),
    In (p_num p) (bad (load_p (norm c d))) ->
    block sha sigok zdec base c (GUpd ch r dl log (UIns p out)) d = (GDone (RStatus 3), norm c d, []).
Proof. exact install_block_respects_ban. Qed.
Print Assumptions C11_install_block_respects_ban.

(* whatever a query block reports, wherever it falls in an interleaving, is intact (C01) *)
Theorem C11_query_intact :
  forall sha sigok zdec base (c : cfg) (o : op) (d d' : disk) (x : out) (l : list netobs) (n : N),
    block sha sigok zdec base c (GOne o) d = (GDone x, d', l) -> reports o x n ->
    intact sha sigok (c_key c) d' n.
Proof. exact block_query_intact. Qed.
Print Assumptions C11_query_intact.

(* no interleaving loses the last good patch: it survives every schedule whose blocks do not
   concern its number (block_ok_lb, Blocks.v) *)
Theorem C11_last_good_survives :
  forall sha sigok zdec base (c : cfg) (m : meta) (order : list nat) (ts : list thread) (d : disk) (busy : option nat) (log : list netobs),
    stable (c_rel c) d -> SelD sha sigok SLB (c_key c) d m ->
    sched_all sha sigok zdec base (block_ok_lb m) c ts d busy order ->
    SelD sha sigok SLB (c_key c) (snd (fst (sched sha sigok zdec base c ts d busy order log))) m.
Proof. exact any_schedule_keeps_last_good. Qed.
Print Assumptions C11_last_good_survives.
