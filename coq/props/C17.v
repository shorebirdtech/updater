(* C17 — install, failure and download events are sent at the promised moments, once. *)
From UV Require Import Base Model Inv Calls Events.

Theorem C17_success_event :
  forall (c : cfg) (d : disk),
    snd (cs_success c d) =
    match cb (load_p (norm c d)) with
    | Some b => if numeq (lb (load_p (norm c d))) (m_num b) then []
                else [NEvent (mk_event c EvInstallSuccess (m_num b) MsgNone)]
    | None => []
    end.
Proof. exact success_event. Qed.
Print Assumptions C17_success_event.

Theorem C17_failure_queues_one :
  forall sha sigok (c : cfg) (d : disk) (b : meta),
    cb (load_p (norm c d)) = Some b ->
    evq_of c (fst (cs_failure sha sigok c d)) =
    evq_of c (norm c d) ++ [mk_event c EvInstallFailure (m_num b) MsgEngine].
Proof. intros. rewrite Sections.cs_failure_disk. apply fail_disk_queues_one. assumption. Qed.
Print Assumptions C17_failure_queues_one.

Theorem C17_crash_detection_queues_one :
  forall sha sigok (c : cfg) (d : disk) (b : meta),
    cb (load_p (norm c d)) = Some b ->
    evq_of c (cs_init_recover sha sigok c d) =
    evq_of c (norm c d) ++ [mk_event c EvInstallFailure (m_num b) MsgInit].
Proof. intros. rewrite Sections.cs_init_recover_disk. apply fail_disk_queues_one. assumption. Qed.
Print Assumptions C17_crash_detection_queues_one.

(* an update sends the three oldest queued events, oldest first, then the check request; any later
   event is the single download event of a successful install *)
Theorem C17_update_flushes :
  forall sha sigok zdec base (c : cfg) (d : disk) ch r dl,
    exists rest,
      snd (do_update sha sigok zdec base c d ch r dl) =
        map NEvent (firstn 3 (evq_of c (norm c d))) ++ NCheck (mk_request c ch) :: rest /\
      (forall e, In (NEvent e) rest ->
                 e = mk_event c EvDownload (e_num e) MsgNone /\
                 snd (fst (do_update sha sigok zdec base c d ch r dl)) = UInstalled) /\
      (snd (fst (do_update sha sigok zdec base c d ch r dl)) = UInstalled ->
       exists p, In (NEvent (mk_event c EvDownload p MsgNone)) rest /\
                 onum (nb (load_p (fst (fst (do_update sha sigok zdec base c d ch r dl))))) = Some p).
Proof. exact update_flushes. Qed.
Print Assumptions C17_update_flushes.

Theorem C17_update_empties_queue :
  forall sha sigok zdec base (c : cfg) (d : disk) ch r dl,
    evq_of c (fst (fst (do_update sha sigok zdec base c d ch r dl))) = [].
Proof. exact update_empties_queue. Qed.
Print Assumptions C17_update_empties_queue.

(* "and never otherwise": queries, launch start and success reports, checks, auto-update queries and
   restarts leave state.json as it was (or as a fresh file, if it belonged to another release), and none
   of them but a launch-success report sends an event *)
Theorem C17_quiet_calls :
  forall sha sigok zdec base (w : world) (o : op) (c : cfg),
    w_cfg w = Some c -> quiet o ->
    (sj (w_disk (fst (fst (step sha sigok zdec base w o)))) = sj (w_disk w) \/
     sj (w_disk (fst (fst (step sha sigok zdec base w o)))) = sj (norm c (w_disk w))) /\
    (forall e, In (NEvent e) (snd (step sha sigok zdec base w o)) -> o = OSuccess).
Proof. exact quiet_calls. Qed.
Print Assumptions C17_quiet_calls.

Theorem C17_quiet_calls_keep_queue :
  forall sha sigok zdec base (w : world) (o : op) (c : cfg),
    w_cfg w = Some c -> stable (c_rel c) (w_disk w) -> quiet o ->
    evq_of c (w_disk (fst (fst (step sha sigok zdec base w o)))) = evq_of c (w_disk w).
Proof. exact quiet_calls_keep_queue. Qed.
Print Assumptions C17_quiet_calls_keep_queue.

(* every event built by the library carries the configured app id and release version *)
Theorem C17_payload :
  forall (c : cfg) (k : evkind) (n : N) (m : evmsg),
    e_app (mk_event c k n m) = c_app c /\ e_rel (mk_event c k n m) = c_rel c /\
    e_num (mk_event c k n m) = n /\ e_kind (mk_event c k n m) = k.
Proof. intros. repeat split. Qed.
Print Assumptions C17_payload.

(* tie to the current sources: the wire names of the three event types *)
From UVG Require Import Consts.
Theorem C17_event_names_from_source :
  gen_event_type_names =
    [("PatchDownload", "__patch_download__"); ("PatchInstallFailure", "__patch_install_failure__");
     ("PatchInstallSuccess", "__patch_install__")]%string /\
  gen_events_url_suffix = "/api/v1/patches/events"%string.
Proof. split; reflexivity. Qed.
Print Assumptions C17_event_names_from_source.

(* The queue on disk (JsonSj.v): every text that spells the tree of a release version and a list of events - in any
   white space, escape form and member order the grammar allows - is read back as exactly that release and those
   events, in order. *)
From UV Require Import Json JsonText JsonTextProofs JsonSj JsonSjProofs.
Theorem C17_saved_queue_is_read_back :
  forall n r q w b w',
    Forall fevent_in_range q -> GS (sstate_schema n) (json_of_fstate r q) b -> WS w -> WS w' ->
    sj_of_file_n n (w ++ b ++ w')%list = JOk {| rel := r; evq := map event_of_fevent q |}.
Proof. exact spelled_state_is_read. Qed.
Print Assumptions C17_saved_queue_is_read_back.

(* ... and every event of the model has such a spelling: written with any architecture, platform and timestamp, it is the
   same event when read (the messages of the two failure events are told apart by their text) *)
Theorem C17_event_survives_the_file :
  forall a p ts (q : list event),
    Forall msg_canonical q -> map event_of_fevent (map (fun e => fevent_of_event a p (ts e) e) q) = q.
Proof. exact queue_is_read_back. Qed.
Print Assumptions C17_event_survives_the_file.

(* tie to the current sources: the reader of state.json knows the event types by the wire names events.rs gives them *)
Theorem C17_reader_knows_the_wire_names :
  map (fun k => (as_evkind (JStr (evkind_str k)))) [EvDownload; EvInstallFailure; EvInstallSuccess] =
    [Some EvDownload; Some EvInstallFailure; Some EvInstallSuccess] /\
  map evkind_str [EvDownload; EvInstallFailure; EvInstallSuccess] = map snd gen_event_type_names.
Proof. split; reflexivity. Qed.
Print Assumptions C17_reader_knows_the_wire_names.

(* the text the library writes for a release and a queue (JsonWrite.w_fstate) is read back as that release and that
   queue: a queued event survives the restart as written *)
From UV Require Import JsonTextExist JsonSjExist JsonWrite JsonWriteProofs.
Theorem C17_written_queue_is_read_back :
  forall r q,
    utf8_valid (bytes_of r) = true -> Forall fevent_in_range q -> Forall fevent_utf8 q ->
    sj_of_file (w_fstate r q) = JOk {| rel := r; evq := map event_of_fevent q |}.
Proof. exact written_sstate_is_read_back. Qed.
Print Assumptions C17_written_queue_is_read_back.
