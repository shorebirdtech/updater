(* C14 — repeated initialisation is inert. *)
From UV Require Import Base Model Calls.

(* the whole world — disk included, booting record included — is unchanged; the call reports failure *)
Theorem C14_init_inert :
  forall sha sigok zdec base (w : world) (c : cfg) (relv : string) (y : yaml_in) (p : bool),
    w_cfg w = Some c -> step sha sigok zdec base w (OInit relv y p) = (w, RBool false, []).
Proof. exact init_inert. Qed.
Print Assumptions C14_init_inert.

(* the configuration in use never changes while the process lives *)
Theorem C14_cfg_preserved :
  forall sha sigok zdec base (w : world) (o : op) (c : cfg),
    w_cfg w = Some c -> o <> OKill -> w_cfg (fst (fst (step sha sigok zdec base w o))) = Some c.
Proof. exact cfg_preserved. Qed.
Print Assumptions C14_cfg_preserved.
