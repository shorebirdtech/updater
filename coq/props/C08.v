(* C08 — patch state never crosses release versions. *)
From UV Require Import Base Model Calls.

(* first init under another release (or with unreadable state.json): everything is discarded *)
Theorem C08_release_change_init :
  forall sha sigok zdec base (d : disk) (relv : string) (y : yaml_in) (c : cfg),
    cfg_of relv y = Some c -> other_release relv d ->
    step sha sigok zdec base {| w_disk := d; w_cfg := None |} (OInit relv y true) =
    ({| w_disk := fresh_disk relv; w_cfg := Some c |}, RBool true, []).
Proof. exact release_change_init. Qed.
Print Assumptions C08_release_change_init.

(* ... so the first queries report no current and no next patch, no artifact, no event, no ban *)
Theorem C08_first_queries :
  forall sha sigok (c : cfg),
    cs_current c (fresh_disk (c_rel c)) = (fresh_disk (c_rel c), None) /\
    cs_next sha sigok c (fresh_disk (c_rel c)) = (fresh_disk (c_rel c), None) /\
    (forall k, arts (fresh_disk (c_rel c)) k = None) /\
    load_p (fresh_disk (c_rel c)) = pempty /\
    evq (load_s c (fresh_disk (c_rel c))) = [].
Proof.
  intros sha sigok c. destruct (fresh_queries sha sigok c) as [A B].
  repeat split; auto.
Qed.
Print Assumptions C08_first_queries.

(* every critical section of every later call discards the old release's state too (a query issued
   before any init cannot happen, but a torn first launch can: see C04) *)
Theorem C08_any_section_resets :
  forall (c : cfg) (d : disk), other_release (c_rel c) d -> norm c d = fresh_disk (c_rel c).
Proof. exact norm_other. Qed.
Print Assumptions C08_any_section_resets.

(* numbers banned or installed under the old release are fresh again: a healthy offer installs *)
Theorem C08_old_numbers_are_fresh :
  forall sha sigok zdec base (c : cfg) ch (rs : resp) (p : patch) bdl out,
    r_rb rs = None -> r_avail rs = true -> r_patch rs = Some p ->
    inflate zdec base bdl = Some out -> hash_ok sha out (p_hash p) = true ->
    snd (fst (do_update sha sigok zdec base c (fresh_disk (c_rel c)) ch (Some rs) (Some bdl))) = UInstalled.
Proof.
  intros sha sigok zdec base c ch rs p bdl out H1 H2 H3 H4 H5.
  apply (healthy_update_installs sha sigok zdec base c (fresh_disk (c_rel c)) ch rs p bdl out);
    auto; first [ exact I | (eexists; split; reflexivity) | discriminate | (intros []) ].
Qed.
Print Assumptions C08_old_numbers_are_fresh.

(* JsonSj.v, the BYTES of state.json: whatever it holds - a text that is not a readable state (cut short, emptied,
   garbled, a member missing or repeated, an unknown event type) or a readable state recorded for another release -
   the first init of this release discards everything. *)
From UV Require Import JsonSj.
Theorem C08_release_change_by_file_content :
  forall sha sigok zdec base (d : disk) (bytes : Base.bytes) (relv : string) (y : yaml_in) (c : cfg),
    cfg_of relv y = Some c ->
    sj d = sj_of_file bytes ->
    (sj_of_file bytes = JGarbage \/ exists s, sj_of_file bytes = JOk s /\ rel s <> relv) ->
    step sha sigok zdec base {| w_disk := d; w_cfg := None |} (OInit relv y true) =
    ({| w_disk := fresh_disk relv; w_cfg := Some c |}, RBool true, []).
Proof.
  intros sha sigok zdec base d bytes relv y c Hc Hsj H.
  apply release_change_init; [exact Hc|]. unfold other_release. rewrite Hsj.
  destruct H as [-> | (s & -> & Hne)]; intros s' E; [discriminate|]. injection E as <-. exact Hne.
Qed.
Print Assumptions C08_release_change_by_file_content.
